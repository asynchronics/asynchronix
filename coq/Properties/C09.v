(* C09 — Cancellation takes effect up to the last moment. *)
Require Import NX.Base.Prelude NX.Base.ListX NX.Model.PQ NX.Model.Sim.
Require Import NX.Proofs.SimBasic NX.Proofs.SimQueue NX.Proofs.SimSched NX.Proofs.SimTerm NX.Proofs.SimComplete.

(* Queue-side check: every action that the critical section of a step turns
   into a task had a key that was not cancelled when the step pulled it (any
   queue, bound, current key; [group]/[groups] = what was collected before). *)
Theorem c09_cancelled_before_step_never_spawned :
  forall fuel s q bound cur group groups q' gs,
    crit fuel s q bound cur group groups = Some (q', gs) ->
    (exists a0, pq_peek q = Some (cur, a0) /\ live s a0) ->
    forall o, In o (concat gs) ->
      In o (concat groups) \/ In o group \/ exists a, o = aop a /\ live s a.
Proof. exact crit_live. Qed.
Print Assumptions c09_cancelled_before_step_never_spawned.

(* peek_next_key hands back a key only for a live head and never inserts: a
   cancelled periodic action is discarded, not re-scheduled. *)
Theorem c09_cancelled_head_discarded :
  forall fuel s q bound k q',
    peek_next fuel s q bound = (Some k, q') ->
    exists a, pq_peek q' = Some (k, a) /\ live s a /\ le_bound (fst k) bound = true.
Proof. exact peek_next_head. Qed.
Print Assumptions c09_cancelled_head_discarded.

Theorem c09_peek_never_inserts :
  forall fuel s q bound nk q',
    peek_next fuel s q bound = (nk, q') -> forall y, In y (items q') -> In y (items q).
Proof. exact peek_next_sub. Qed.
Print Assumptions c09_peek_never_inserts.

(* Handler-side check (events on a model input): if the key is cancelled by the
   time the model dequeues the event - e.g. by an earlier event of the same
   model at the same time - the handler does not run and nothing is logged. *)
Theorem c09_cancelled_before_dequeue_not_run :
  forall b s t x m sp g rest key,
    nth_error (tasks s) t = Some x -> tk x = TKModel m -> tfr x = None -> tdone x = false ->
    tinit x = false -> nth_error (bmodels b) m = Some sp ->
    nth_error (boxes s) m = Some (g :: rest) -> mkd g = KEvent key -> key_cancelled s key = true ->
    exists s', step_start b s t = Some s' /\ log s' = log s /\
               nth_error (tasks s') t = Some (tset_tfr x (Some (empty_frame [] (mval g) None))).
Proof. exact step_start_cancelled. Qed.
Print Assumptions c09_cancelled_before_dequeue_not_run.

(* Cancelling (through any holder of the key: keys are shared flags) changes one
   flag and nothing else: other actions are unaffected, and cancelling after the
   action ran has no further effect. *)
Theorem c09_cancel_only_its_key :
  forall s k,
    let s' := cancel_key s k in
    queue s' = queue s /\ now s' = now s /\ tasks s' = tasks s /\ boxes s' = boxes s /\ log s' = log s /\
    (forall k', k' <> k -> key_cancelled s' k' = key_cancelled s k') /\
    (forall i, k = Some i -> i < length (cancelled s) -> key_cancelled s' k = true).
Proof. exact cancel_key_spec. Qed.
Print Assumptions c09_cancel_only_its_key.

(* Other actions are unaffected by a cancellation, and a live action due now is
   never lost: an entry leaves the queue during a step only if ITS key is
   cancelled or it is fired. *)
Theorem c09_others_unaffected :
  forall fuel s q bound cur group groups q' gs,
    pq_wf q -> q_from q (fst cur) -> (exists a0, pq_peek q = Some (cur, a0)) ->
    crit fuel s q bound cur group groups = Some (q', gs) ->
    forall y, In y (items q) ->
      In y (items q') \/ key_cancelled s (akey (ival y)) = true \/ In (aop (ival y)) (concat gs).
Proof. exact crit_complete. Qed.
Print Assumptions c09_others_unaffected.

(* non-vacuity: cancel before the step, cancel by an earlier same-time event of
   the same model (slot 0 of the model), cancel after firing, periodic stops *)
Definition c09_bench : bench :=
  {| bmodels := [{| mcap := 8; mplace := Added; mparent := None; mnamed := true; minit := [];
                    mhandlers := [[]; [OSched (DRel 5) 0 (EInPlus 100) (Some 0) None]; [OCancel 0]];
                    mrepliers := []; mouts := []; mreqs := [] |}];
     bsinks := []; bsources := []; bclock := []; btol := None; bt0 := 0;
     bugF1 := false; bugF2 := false; bugF3 := false; bugF4 := false |}.
Example c09_nonvacuous :
  map (fun o => length (filter (fun e => match e with EHandler _ _ _ _ => true | _ => false end) (olog o)))
      (sim_exec c09_bench 800 []
         [(CSchedEvent (DAbs 10) 0 0 1 (Some 0) None, []); (CSchedEvent (DAbs 10) 0 0 2 (Some 1) (Some 10%Z), []);
          (CCancel 0, []); (CStep, []); (CStep, []); (CCancel 1, []); (CStep, []);
          (CSchedEvent (DAbs 50) 0 1 3 None None, []); (CStep, []);
          (CSchedEvent (DAbs 55) 0 2 4 None None, []); (CStep, []); (CStep, [])])
  = [0; 0; 0; 0; 1; 1; 0; 0; 0; 1; 0; 1; 0].
Proof. vm_compute. reflexivity. Qed.
