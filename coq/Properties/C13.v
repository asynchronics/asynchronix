(* C13 — Task lifecycle is safe under every interleaving of its handles.
   Model: Model/TaskSM.v (sequentially consistent, read-modify-write
   granularity); invariant: Model/TaskInv.v.  See MANIFEST level note for what
   is partial. *)
Require Import NX.Base.Prelude NX.Model.TaskSM NX.Model.TaskInv NX.Proofs.TaskProofs NX.Proofs.TaskLayout.

(* The invariant holds in every state reachable from spawn / spawn_and_forget
   under ANY sequence of handle operations by any number of threads and wakers
   (operations that are not enabled are skipped). *)
Theorem c13_invariant_spawn : forall ops, inv_b (ts_run init_spawn ops) = true.
Proof. intros ops. apply ts_run_inv, init_spawn_inv. Qed.
Print Assumptions c13_invariant_spawn.

Theorem c13_invariant_forget : forall ops, inv_b (ts_run init_forget ops) = true.
Proof. intros ops. apply ts_run_inv, init_forget_inv. Qed.
Print Assumptions c13_invariant_forget.

Theorem c13_step : forall s o s', inv_b s = true -> ts_step s o = Some s' -> inv_b s' = true.
Proof. exact ts_step_inv. Qed.
Print Assumptions c13_step.

(* What the invariant says (each is a conjunct of inv_b, projected):
   - the future is polled by at most one thread at a time, and never after it
     completed, was cancelled-and-dropped or panicked (badrun = badpoll = 0:
     a second concurrent runner / a poll of a core that is not the live future
     would bump them);
   - nothing is accessed after release and nothing is released twice
     (badfree = 0), the future is dropped at most once, the output dropped or
     taken at most once, the memory freed at most once;
   - a Runnable exists (queued or running) exactly when POLLING and (wake
     count <> 0 or CLOSED): a wake-up while pending always leaves a Runnable
     that will poll again;
   - refs = live wakers + token + promise (+ the canceller's kept reference);
   - no leak: while the task is allocated some handle is still alive; once all
     are gone the memory has been freed exactly once and the core is empty. *)
Theorem c13_meaning :
  forall s, inv_b s = true ->
    badpoll s = 0 /\ badrun s = 0 /\ badfree s = 0 /\ queued s + active s <= 1 /\
    futdrops s <= 1 /\ outdrops s <= 1 /\ deallocs s <= 1 /\
    (alloc s = true -> refs s = wakers s + b2n (token s) + b2n (promise s) + b2n (cdrop s)) /\
    (alloc s = true -> (queued s + active s = 1 <-> runnable_exists s = true)) /\
    (alloc s = true -> wakers s + b2n (token s) + b2n (promise s) + queued s + active s + b2n (cdrop s) >= 1) /\
    (alloc s = false -> deallocs s = 1 /\ futdrops s = 1 /\ wakers s = 0 /\ token s = false /\ promise s = false /\
                        queued s = 0 /\ active s = 0).
Proof. exact inv_meaning. Qed.
Print Assumptions c13_meaning.

(* the model's initial states are the state words written by the source *)
Theorem c13_initial_words :
  Consts.TASK_INIT_SPAWN = encode 1 2 false true /\ Consts.TASK_INIT_SPAWN_FORGET = encode 1 1 false true.
Proof. split; [exact layout_init_spawn|exact layout_init_forget]. Qed.
Print Assumptions c13_initial_words.
