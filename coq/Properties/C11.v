(* C11 — Failures are classified and the simulation stays terminated. *)
Require Import NX.Base.Prelude NX.Base.ListX NX.Model.PQ NX.Model.Sim.
Require Import NX.Proofs.SimBasic NX.Proofs.SimDriver NX.Proofs.SimQueue NX.Proofs.SimTop.

(* After termination every attempt to run the simulation (step, step_until,
   process_event, process_query, process) returns Terminated and leaves the
   WHOLE state unchanged: no time write, no clock call, no task spawned, no
   handler run, nothing pulled from the queue. *)
Theorem c11_fatal_sticky :
  forall b fuel s c ch,
    bugF1 b = false -> terminated s = true -> is_running c = true ->
    exec_cmd b fuel s c ch = (s, RTerminated, false).
Proof. exact terminated_sticky. Qed.
Print Assumptions c11_fatal_sticky.

(* Every fatal result (Deadlock, MessageLoss, NoRecipient, Panic, OutOfSync)
   leaves the simulation terminated. *)
Theorem c11_fatal_terminates :
  forall b fuel s c ch s' r nd,
    exec_cmd b fuel s c ch = (s', r, nd) -> is_fatal r = true -> terminated s' = true.
Proof. exact exec_cmd_fatal. Qed.
Print Assumptions c11_fatal_terminates.

(* Non-fatal errors: an invalid step_until deadline and a rejected scheduling
   request change nothing (so the simulation stays usable). *)
Theorem c11_invalid_deadline_nonfatal :
  forall b fuel s d ch,
    terminated s = false -> (dl_time d (now s) < now s)%Z ->
    exec_cmd b fuel s (CStepUntil d) ch = (s, RInvalidDeadline (dl_time d (now s)), false).
Proof. exact invalid_deadline_unchanged. Qed.
Print Assumptions c11_invalid_deadline_nonfatal.

Theorem c11_sched_error_nonfatal :
  forall b fuel s c ch s' code nd,
    is_sched_cmd c = true ->
    exec_cmd b fuel s c ch = (s', RSched code, nd) -> code <> 0%N -> s' = s.
Proof. exact sched_error_unchanged. Qed.
Print Assumptions c11_sched_error_nonfatal.

(* How a run that stops is classified (Simulation::run): by definition of
   classify, Panic carries the panicking model's qualified name and payload,
   NoRecipient the sending model (none for scheduler/source actions). *)
Theorem c11_run_result :
  forall b fuel ch s s' r nd,
    sim_run b fuel ch s = (s', r, nd) ->
    (terminated s = true -> s' = s /\ r = RTerminated) /\
    (terminated s = false ->
       r = RFuel \/
       (r <> RTerminated /\ r <> RFuel /\ r <> RHang /\
        now s' = now s /\ clockpos s' = clockpos s /\ dkeys s' = dkeys s /\
        terminated s' = negb (is_ok r) /\
        exists l, log s' = l ++ log s /\ forallb plain_entry l = true)).
Proof. exact sim_run_spec. Qed.
Print Assumptions c11_run_result.

(* The pinned tree violated c11_fatal_sticky (finding F1): with the bug switch on,
   a step after a fatal panic moves the time and calls the clock. *)
Definition c11_bench (f1 : bool) : bench :=
  {| bmodels := [{| mcap := 4; mplace := Added; mparent := None; mnamed := true; minit := [];
                    mhandlers := [[OPanic 9]; []]; mrepliers := []; mouts := []; mreqs := [] |}];
     bsinks := []; bsources := []; bclock := []; btol := None; bt0 := 0;
     bugF1 := f1; bugF2 := false; bugF3 := false; bugF4 := false |}.
Definition c11_cmds : list (cmd * list nat) := [(CSchedEvent (DAbs 10) 0 0 1 None None, []); (CSchedEvent (DAbs 20) 0 1 2 None None, []);
                        (CStep, []); (CStep, []); (CStepUntil (DAbs 50), [])].
Example c11_refuted_on_pinned_tree :
  map (fun o => (ores o, otime o)) (sim_exec (c11_bench true) 300 [] c11_cmds)
  = [(ROk, 0); (RSched 0, 0); (RSched 0, 0); (RPanic [Some 0%nat] 9, 10); (RTerminated, 20); (ROk, 50)]%Z.
Proof. vm_compute. reflexivity. Qed.
Example c11_holds_after_fix :
  map (fun o => (ores o, otime o)) (sim_exec (c11_bench false) 300 [] c11_cmds)
  = [(ROk, 0); (RSched 0, 0); (RSched 0, 0); (RPanic [Some 0%nat] 9, 10); (RTerminated, 10); (RTerminated, 10)]%Z.
Proof. vm_compute. reflexivity. Qed.

(* ---- classification by the single-threaded executor's run (Model/StRun.v, program generated from the
   source): a run whose task loop was cut short by a panic of model m returns Panic naming m (never
   "unprocessed messages", whatever is in flight), and the model ID of an enclosing simulation's handler survives a
   nested run (F7 is the refutation for the pinned tree, see C06.v) *)
Require Import NX.Model.StRun NX.gen.StRunProg NX.Proofs.StRunGen.

Theorem c11_strun_panic_is_reported_first :
  forall c0 i0 own d m,
    snd (sr_exec d (Some m) (sr_init c0 i0 own) strun_gen) = Some (SRPanic (Some m)) /\
    tl_id (fst (sr_exec d (Some m) (sr_init c0 i0 own) strun_gen)) = i0.
Proof.
  intros c0 i0 own d m. pose proof (NX.Proofs.StRunProofs.strun_fixed_spec c0 i0 own d (Some m)) as H.
  change strun_fixed with strun_gen in H.
  destruct (sr_exec d (Some m) (sr_init c0 i0 own) strun_gen) as [s r]. cbn [fst snd].
  destruct H as (_ & A & B & _). split; auto.
Qed.
Print Assumptions c11_strun_panic_is_reported_first.
