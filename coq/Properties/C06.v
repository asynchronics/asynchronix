(* C06 — Deadlock and message-loss detection is exact. *)
Require Import NX.Base.Prelude NX.Base.ListX NX.Model.PQ NX.Model.Sim.
Require Import NX.Proofs.SimBasic NX.Proofs.NetProofs.

(* The in-flight message counter equals the total number of queued messages,
   over ALL mailboxes, in every state reachable by the steps of a run (any
   schedule, any bench): it is an invariant of every step. *)
Theorem c06_count_exact_step :
  forall b s l s', count_ok s -> net_step b s l = Some s' -> count_ok s'.
Proof. exact net_step_count. Qed.
Print Assumptions c06_count_exact_step.

Theorem c06_count_exact_run :
  forall b fuel ch s nd s' nd', count_ok s -> net_run b fuel ch s nd = Some (s', nd') -> count_ok s'.
Proof. exact net_run_count. Qed.
Print Assumptions c06_count_exact_run.

(* What the verdict of a failure-free run means: Ok iff every mailbox is empty;
   Deadlock l iff l is the non-empty list of observed mailboxes; MessageLoss n
   iff no observed mailbox holds a message and n is the (non-zero) total number
   of queued messages, which therefore all sit in mailboxes that are not
   observed. *)
Theorem c06_report :
  forall b s, err s = None -> count_ok s ->
    (classify b s = ROk <-> forall m q, nth_error (boxes s) m = Some q -> q = []) /\
    (forall l, classify b s = RDeadlock l -> l = observed b s /\ l <> []) /\
    (forall n, classify b s = RMessageLoss n ->
       observed b s = [] /\ n = Z.of_nat (total_len (boxes s)) /\ n <> 0%Z).
Proof.
  intros b s HE HC. destruct (classify_iff b s HE HC) as (A & B & C).
  split; [exact A|]. split; [intros l; apply B|intros n; apply C].
Qed.
Print Assumptions c06_report.

(* The observed mailboxes are exactly the added models with a non-empty
   mailbox - sub-models included once their observers are registered
   (bugF2 = false) - by qualified name and exact length. *)
Theorem c06_observed :
  forall b s name n,
    In (name, n) (observed b s) <->
    exists m sp q, nth_error (bmodels b) m = Some sp /\ nth_error (boxes s) m = Some q /\
                   is_added sp = true /\ (is_top sp = true \/ bugF2 b = false) /\
                   q <> [] /\ name = mname b m /\ n = length q.
Proof. exact observed_spec. Qed.
Print Assumptions c06_observed.

(* Finding F2: on the pinned tree a query loop-back inside a sub-model is
   reported as MessageLoss(1); with the observers registered it is Deadlock. *)
Definition c06_bench (f2 : bool) : bench :=
  {| bmodels := [{| mcap := 4; mplace := Added; mparent := None; mnamed := true; minit := [];
                    mhandlers := [[]]; mrepliers := []; mouts := []; mreqs := [] |};
                 {| mcap := 4; mplace := Added; mparent := Some 0; mnamed := true; minit := [];
                    mhandlers := [[OQuery 0 EIn]]; mrepliers := [([], 1%Z)]; mouts := [];
                    mreqs := [[{| qkeep := KAll; qadd := 0; qmodel := 1; qrep := 0; qradd := 0 |}]] |}];
     bsinks := []; bsources := []; bclock := []; btol := None; bt0 := 0;
     bugF1 := false; bugF2 := f2; bugF3 := false; bugF4 := false |}.
Example c06_submodel_refuted_on_pinned_tree :
  map ores (sim_exec (c06_bench true) 300 [] [(CProcEvent 1 0 5, [])]) = [ROk; RMessageLoss 1].
Proof. vm_compute. reflexivity. Qed.
Example c06_submodel_after_fix :
  map ores (sim_exec (c06_bench false) 300 [] [(CProcEvent 1 0 5, [])]) = [ROk; RDeadlock [([Some 0; Some 1], 1)]].
Proof. vm_compute. reflexivity. Qed.

(* ---- the message count read by the multi-threaded executor (Model/Pool.v) ----
   For the barrier program GENERATED from the current executor/mt_executor.rs: every value of msg_count
   that Executor::run reads when it finds the pool idle equals the number of messages sent minus the
   number of messages received by all the tasks run so far, for every pool size, interleaving and task
   behaviour: no spurious and no missed "unprocessed messages" verdict comes from the hand-off between
   the workers going idle and the main thread. *)
Require Import NX.Model.Pool NX.gen.PoolProg NX.Proofs.PoolProofs NX.Proofs.PoolGen.

Theorem c06_pool_count_read_is_exact :
  forall n ls, 1 <= n ->
    let s := p_run barrier_gen (p_init n) ls in
    pmain s = MRead -> pmsg s = pnet s.
Proof. intros n ls Hn s H. exact (proj1 (inv_read_exact s (pool_run_inv n ls Hn) H)). Qed.
Print Assumptions c06_pool_count_read_is_exact.

Theorem c06_pool_every_count_read_was_exact :
  forall n ls m k, 1 <= n -> In (m, k) (preads (p_run barrier_gen (p_init n) ls)) -> m = k.
Proof. intros n ls m k Hn. apply PoolInv.i_reads, PoolInv.i_base, pool_run_inv, Hn. Qed.
Print Assumptions c06_pool_every_count_read_was_exact.

(* F5: with the barrier of the pinned tree (count folded AFTER the worker cleared its bit) the main thread
   reads -1 although every message sent was received: the executor then panics on the conversion of the
   count (or, with the roles of the two workers exchanged, reports one unprocessed message) *)
Example c06_pool_count_refuted_on_pinned_tree :
  let s := p_run barrier_pinned (p_init 2) sched_pinned in
  pmain s = MRead /\ pmsg s = (-1)%Z /\ pnet s = 0%Z /\ Pool.quiescent s.
Proof. exact pool_pinned_refuted. Qed.

(* ---- the thread counts contributed through one mailbox channel (Model/Chan.v) ----
   For the programs GENERATED from the current channel.rs (count +1 after a successful push, -1 after a
   successful pop): whenever no sender is between its push and its count update and the receiver is not between
   its pop and its count update, the sum of the contributions equals the number of messages queued in that
   mailbox, for every number of senders, capacity and interleaving.  Together with c06_pool_count_read_is_exact
   (the executor reads the exact sum of the thread counts) this is the multi-threaded counterpart of
   c06_count_exact_step. *)
Require Import NX.Model.Chan NX.gen.ChanProg NX.Proofs.ChanInv NX.Proofs.ChanCount NX.Proofs.ChanGen.

Theorem c06_chan_count_is_queued :
  forall c n ls,
    let s := c_run chan_gen (c_init c n) ls in
    (forall x, inc_pending (spc_ (S_ s x)) = false) -> dec_pending (rpc_ s) = false ->
    ccount s = Z.of_nat (cavail s).
Proof. intros c n ls. exact (ccnt_count_is_queued _ (chan_run_cnt c n ls)). Qed.
Print Assumptions c06_chan_count_is_queued.

(* ---- nested simulations on one thread: the single-threaded executor's run (Model/StRun.v) ----
   For the body of ExecutorInner::run GENERATED from the current executor/st_executor.rs, whatever the tasks do
   (any change d of the thread's count, completion or a panic of any model) and whatever the enclosing
   executor had in the two thread-locals: the run leaves THREAD_MSG_COUNT and CURRENT_MODEL_ID as it found
   them on every path, keeps its own count, and reports a panic before unprocessed messages.  F6 and F7 are the
   refutation of this specification for the body of the pinned tree. *)
Require Import NX.Model.StRun NX.gen.StRunProg NX.Proofs.StRunProofs NX.Proofs.StRunGen.

Theorem c06_strun_source_is_proved_program : strun_gen = strun_fixed.
Proof. exact strun_gen_is_proved. Qed.
Print Assumptions c06_strun_source_is_proved_program.

Theorem c06_strun_nested_run_restores_thread_locals : sr_spec strun_gen.
Proof. exact strun_fixed_spec. Qed.
Print Assumptions c06_strun_nested_run_restores_thread_locals.

Theorem c06_strun_refuted_on_pinned_tree : ~ sr_spec strun_pinned.
Proof. exact strun_pinned_not_spec. Qed.
Print Assumptions c06_strun_refuted_on_pinned_tree.
