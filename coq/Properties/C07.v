(* C07 — Same-time events from one origin are processed in scheduling order.
   The property is the composition of four facts, each proved for all inputs;
   the end-to-end composition over traces is checked by correspondence and by
   the direct oracle, not (yet) by one trace theorem: see MANIFEST level note. *)
Require Import NX.Base.Prelude NX.Base.ListX NX.Model.PQ NX.Model.Sink NX.Model.Sim.
Require Import NX.Proofs.PQProofs NX.Proofs.SimBasic NX.Proofs.SimQueue NX.Proofs.SimSched NX.Proofs.SimTerm NX.Proofs.SimComplete NX.Proofs.SimOrder.

(* 1. Among equal keys (time, origin) the queue hands out entries in insertion
      order: it refines "first entry among those with the least key". *)
Theorem c07_queue_stable :
  forall (V : Type) (ops : list (pq_op V)), pq_run pq_empty ops = spec_run [] ops.
Proof. exact pq_refines. Qed.
Print Assumptions c07_queue_stable.

(* 1'. A request is inserted behind everything already queued (next epoch), and
      a periodic occurrence is (re-)inserted when the preceding one is pulled. *)
Theorem c07_insert_last :
  forall s origin d mk keyed period chk s' k,
    sched_request s origin d mk keyed period chk = (s', 0%N, k) ->
    exists it, items (queue s') = items (queue s) ++ [it] /\
               ikey it = (dl_time d (now s), origin) /\ iepoch it = next_epoch (queue s).
Proof.
  intros s origin d mk keyed period chk s' k H.
  destruct (sched_request_ok _ _ _ _ _ _ _ _ _ H) as (_ & E & _).
  eexists. split; [exact E|]. split; reflexivity.
Qed.
Print Assumptions c07_insert_last.

Theorem c07_periodic_reinserted_at_pull :
  forall q k a q1 p,
    pq_pull q = (Some (k, a), q1) -> aperiod a = Some p ->
    pull_next q = Some (k, a, pq_insert q1 ((fst k + p)%Z, snd k) a).
Proof. exact pull_next_periodic. Qed.
Print Assumptions c07_periodic_reinserted_at_pull.

(* 1''. The critical section of a step pulls entries in STRICTLY increasing
      (key, epoch) order: crit_i is crit keeping the pulled items (c07_crit_ghost),
      and the concatenation of its groups is strictly sorted - so inside a group
      (one key) the ops are in epoch = scheduling order, and an entry is fired
      after every entry with a smaller key or the same key and a smaller epoch. *)
Theorem c07_crit_ghost :
  forall fuel s q bound cur group groups,
    crit fuel s q bound cur (ops_of group) (map ops_of groups) =
    option_map (fun p => (fst p, map ops_of (snd p))) (crit_i fuel s q bound cur group groups).
Proof. exact crit_i_spec. Qed.
Print Assumptions c07_crit_ghost.

Theorem c07_fired_in_key_epoch_order :
  forall fuel s q bound cur group groups q' gs,
    pq_wf q -> q_from q (fst cur) -> (exists m0, pq_peek_item q = Some m0 /\ ikey m0 = cur) ->
    strictly_sorted (concat groups ++ group) ->
    (forall x y, In x (concat groups ++ group) -> In y (items q) -> item_lt action x y) ->
    crit_i fuel s q bound cur group groups = Some (q', gs) ->
    strictly_sorted (concat gs).
Proof.
  intros fuel s q bound cur group groups q' gs HW HQ HP HS HB H.
  exact (proj1 (crit_i_sorted_below fuel _ _ _ _ _ _ _ _ (conj HW (conj HQ HP)) HS HB H)).
Qed.
Print Assumptions c07_fired_in_key_epoch_order.

(* 2. Actions pulled with one key go, in pull order, into ONE sequential task;
      a task does not start its next op while a delivery of the current one is
      outstanding. *)
Theorem c07_task_sequential :
  forall b s t x f d ds,
    nth_error (tasks s) t = Some x -> tfr x = Some f -> fpend f = d :: ds -> step_op b s t = None.
Proof. exact step_op_blocked. Qed.
Print Assumptions c07_task_sequential.

(* 3. Mailboxes are FIFO and bounded: a delivery appends at the back (only when
      there is room); the model task starts the message at the head. *)
Theorem c07_mailbox_fifo :
  forall b s t i x f m g thr sp q s',
    nth_error (tasks s) t = Some x -> tfr x = Some f ->
    nth_error (fpend f) i = Some {| dtgt := DModel m g; dthrow := thr |} ->
    nth_error (bmodels b) m = Some sp -> mplace sp <> Dropped -> nth_error (boxes s) m = Some q ->
    step_deliver b s t i = Some s' ->
    nth_error (boxes s') m = Some (q ++ [g]) /\ length q < mcap sp /\ inflight s' = (inflight s + 1)%Z.
Proof. exact deliver_appends. Qed.
Print Assumptions c07_mailbox_fifo.

(* non-vacuity / end-to-end instance: five same-time events of one origin with a
   mailbox of capacity 1 (the sequential task blocks four times), plus a periodic
   one whose second occurrence was re-inserted after a later one-shot request *)
Definition c07_bench : bench :=
  {| bmodels := [{| mcap := 1; mplace := Added; mparent := None; mnamed := true; minit := [];
                    mhandlers := [[]]; mrepliers := []; mouts := []; mreqs := [] |}];
     bsinks := []; bsources := []; bclock := []; btol := None; bt0 := 0;
     bugF1 := false; bugF2 := false; bugF3 := false; bugF4 := false |}.
Example c07_nonvacuous :
  forall ch, length ch <= 2 -> Forall (fun c => c < 3) ch ->
  map olog (skipn 7 (sim_exec c07_bench 2000 []
     [(CSchedEvent (DAbs 10) 0 0 1 None (Some 10%Z), []); (CSchedEvent (DAbs 20) 0 0 2 None None, []);
      (CSchedEvent (DAbs 20) 0 0 3 None None, []); (CStep, []);
      (CSchedEvent (DAbs 20) 0 0 4 None None, []); (CSchedEvent (DAbs 20) 0 0 5 None None, []);
      (CStep, ch)]))
  = [[ETime 20; EClock 20; EHandler 0 0 2 20; EHandler 0 0 3 20; EHandler 0 0 1 20;
      EHandler 0 0 4 20; EHandler 0 0 5 20]]%Z.
Proof.
  intros ch L F. destruct ch as [|c1 [|c2 [|c3 r]]]; cbn in L; try lia.
  - vm_compute. reflexivity.
  - inversion F; subst. destruct c1 as [|[|[|c1]]]; try lia; vm_compute; reflexivity.
  - inversion F as [|? ? F1 F2]; subst. inversion F2; subst.
    destruct c1 as [|[|[|c1]]]; try lia; destruct c2 as [|[|[|c2]]]; try lia; vm_compute; reflexivity.
Qed.

(* ---- SeqFuture::poll (util/seq_futures.rs, Model/SeqFut.v) ----
   "all actions with an identical key are chained in one SeqFuture and polled sequentially": for the loop
   body GENERATED from the current seq_futures.rs (translator T7), every non-empty list of sub-futures and
   every number of Pending answers of each: the sub-futures are polled strictly in order, each until it is
   Ready and never again (trace = sq_expected, no fault, no out-of-bounds index), the SeqFuture is Ready
   exactly with the poll in which the last one becomes Ready, and not before. *)
Require Import NX.Model.SeqFut NX.gen.SeqFutProg NX.Proofs.SeqFutProofs NX.Proofs.SeqFutGen.

Theorem c07_seqfuture_source_is_proved_program : seqfut_gen = seqfut_fixed.
Proof. exact seqfut_gen_is_proved. Qed.
Print Assumptions c07_seqfuture_source_is_proved_program.

Theorem c07_seqfuture_polls_in_order_each_to_completion :
  forall k ks,
    sq_polls (S (sum_list (k :: ks))) seqfut_gen (k :: ks) sq_init
    = ({| qidx := length (k :: ks); qcur := 0; qtrace := sq_expected 0 (k :: ks); qbad := false; qoob := false |}, true)
    /\ forall m, m <= sum_list (k :: ks) -> snd (sq_polls m seqfut_gen (k :: ks) sq_init) = false.
Proof. exact seqfut_fixed_spec. Qed.
Print Assumptions c07_seqfuture_polls_in_order_each_to_completion.

Example c07_seqfuture_nonvacuous :
  fst (sq_polls 4 seqfut_fixed [1; 0; 2] sq_init)
  = {| qidx := 3; qcur := 0; qtrace := [0; 0; 1; 2; 2; 2]; qbad := false; qoob := false |}.
Proof. exact seqfut_nonvacuous. Qed.

(* a body that advances twice skips sub-futures (an action silently dropped) *)
Example c07_seqfuture_skip_refuted : sq_check seqfut_skip [1; 0; 2] = false.
Proof. exact seqfut_skip_refuted. Qed.
