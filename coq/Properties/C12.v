(* C12 — Mailbox = bounded, lossless MPSC FIFO.
   Part 1: operation sequences (one operation at a time): the stamped ring buffer refines a
   bounded FIFO (Model/Queue.v).  Part 2: any number of producers, the consumer and a closer
   interleaved at the granularity of single shared-memory accesses (Model/QueueConc.v). *)
Require Import NX.Base.Prelude NX.Base.ListX NX.Model.Queue NX.Proofs.QueueProofs.
Require Import NX.Model.QueueConc NX.Proofs.QueueConcInv NX.Proofs.QueueConcSteps NX.Proofs.QueueConcProofs.

(* For every capacity >= 1 and every sequence of push / pop / pop-and-hold /
   release / close / len / is_closed, the stamped ring buffer of queue.rs
   answers exactly like a bounded FIFO with one borrowable slot: pushes are
   refused (Full) exactly when capacity messages are outstanding (queued or
   borrowed), refused (Closed) after close; pops return the messages in push
   order, each once; Closed is reported only when the queue is closed AND
   drained; len is the number of queued messages. *)
Theorem c12_seq_refines :
  forall (V : Type) (cap : nat) (ops : list (qop V)),
    cap >= 1 -> q_run (queue_new cap) ops = fifo_run (fifo_new cap) ops.
Proof. exact queue_refines. Qed.
Print Assumptions c12_seq_refines.

(* the representation invariant is kept by every operation from every state
   that satisfies it (not only from the initial one) *)
Theorem c12_seq_step :
  forall (V : Type) (q : queue V) (f : fifo V) (o : qop V),
    QI V q f -> snd (q_step q o) = snd (fifo_step f o) /\ QI V (fst (q_step q o)) (fst (fifo_step f o)).
Proof. exact step_refines. Qed.
Print Assumptions c12_seq_step.

Example c12_nonvacuous :
  q_run (queue_new 2) [QPush 1; QPush 2; QPush 3; QLen; QPop; QLen; QPopHold; QPush 3; QPush 4; QRelease;
                       QPush 4; QPop; QPop; QPop; QClose; QPush 9; QPop; QIsClosed]%Z
  = [QRPush PushOk; QRPush PushOk; QRPush PushFull; QRLen 2; QRPop (PopVal 1); QRLen 1; QRPop (PopVal 2);
     QRPush PushOk; QRPush PushFull; QRRel true; QRPush PushOk; QRPop (PopVal 3); QRPop (PopVal 4);
     QRPop PopEmpty; QRUnit; QRPush PushClosed; QRPop PopClosed; QRBool true]%Z.
Proof. vm_compute. reflexivity. Qed.


(* ------------------------------------------------------------------------------------------
   Part 2 - concurrent.  For every capacity >= 1, any number of producers with any lists of
   messages, any number of pop attempts, a close() at any moment, every interleaving of the
   individual atomic accesses and every spurious failure of compare_exchange_weak: the invariant
   CInv holds in every reachable state. *)
Theorem c12_conc_invariant :
  forall (V : Type) capacity (pv : list (list V)) npops sched,
    1 <= capacity -> CInv V (cq_run (cq_init capacity pv npops) sched).
Proof. exact cq_reachable_inv. Qed.
Print Assumptions c12_conc_invariant.

Theorem c12_conc_step :
  forall (V : Type) (s s' : cstate V) t b, CInv V s -> cq_step s t b = Some s' -> CInv V s'.
Proof. exact cq_step_inv. Qed.
Print Assumptions c12_conc_step.

(* lossless FIFO, exactly once: what the consumer has received is a prefix of the accepted
   messages in the order of acceptance (the order of the successful compare-exchanges) *)
Theorem c12_conc_fifo :
  forall (V : Type) (s : cstate V), CInv V s -> exists k, k <= length (log s) /\ popped s = firstn k (log s).
Proof. exact cq_fifo. Qed.
Print Assumptions c12_conc_fifo.

(* bounded: accepted and not yet handed back <= capacity *)
Theorem c12_conc_bounded :
  forall (V : Type) (s : cstate V), CInv V s -> enq s - rel V s <= cap s /\ rel V s <= deq s <= enq s.
Proof. exact cq_bounded. Qed.
Print Assumptions c12_conc_bounded.

(* per producer: its accepted messages occupy strictly increasing positions of the log, i.e. they
   are delivered in the order in which it sent them *)
Theorem c12_conc_producer_order :
  forall (V : Type) (s : cstate V) i p,
    CInv V s -> nth_error (prods s) i = Some p ->
    sdesc (map fst (ptix p)) /\ forall n v, In (n, v) (ptix p) -> nth_error (log s) n = Some v.
Proof. exact cq_producer_order. Qed.
Print Assumptions c12_conc_producer_order.

(* the unreachable!() arms and the debug assertion of queue.rs are never reached: no two parties
   ever access the same cell at once *)
Theorem c12_conc_no_unreachable : forall (V : Type) (s : cstate V), CInv V s -> cerr s = 0.
Proof. exact cq_no_unreachable. Qed.
Print Assumptions c12_conc_no_unreachable.

(* len() = number of messages held, whenever no operation is in flight *)
Theorem c12_conc_len :
  forall (V : Type) (s : cstate V),
    CInv V s -> quiescent s -> cq_len s = length (log s) - length (popped s) /\ cq_len s <= cap s.
Proof. intros V s HI [Hc _]. exact (cq_len_exact V s HI Hc). Qed.
Print Assumptions c12_conc_len.

(* after close() no message is accepted any more ... *)
Theorem c12_conc_closed_no_accept :
  forall (V : Type) (s s' : cstate V) t b,
    closed s = true -> cq_step s t b = Some s' -> log s' = log s /\ closed s' = true.
Proof. exact cq_closed_no_accept. Qed.
Print Assumptions c12_conc_closed_no_accept.

(* ... while the messages already accepted remain receivable: Closed is reported to the consumer
   only when every accepted message has been delivered *)
Theorem c12_conc_closed_only_when_drained :
  forall (V : Type) (s s' : cstate V),
    CInv V s -> cons_step s = Some s' -> cout (con s') = CrClosed :: cout (con s) ->
    closed s = true /\ popped s = log s.
Proof. exact cq_closed_only_when_drained. Qed.
Print Assumptions c12_conc_closed_only_when_drained.

(* non-vacuity: two producers race for a queue of capacity 2 (one compare-exchange fails
   spuriously), one push is refused (Full), close() arrives, the consumer drains and is told Closed *)
Definition c12_sched : list (nat * bool) :=
  [(2, false); (3, false); (2, false); (3, false); (2, true); (3, false); (3, false); (3, false); (2, false);
   (2, false); (2, false); (2, false); (0, false); (0, false); (0, false); (0, false); (2, false); (2, false);
   (2, false); (2, false); (1, false); (0, false); (0, false); (2, false); (2, false); (0, false); (0, false);
   (0, false); (0, false); (0, false); (0, false); (0, false); (0, false); (0, false); (0, false); (0, false)].
Example c12_conc_nonvacuous :
  let s := cq_run (cq_init 2 [[1; 2; 3]; [7]]%Z 4) c12_sched in
  (log s, popped s, map (fun p => rev (pout p)) (prods s), rev (cout (con s)), cerr s) =
  ([7; 1]%Z, [7; 1]%Z, [[PrOk; PrFull]; [PrOk]], [CrVal 7; CrVal 1; CrClosed]%Z, 0).
Proof. vm_compute. reflexivity. Qed.


(* ------------------------------------------------------------------------------------------
   Part 3 - "a sender waiting for space and the receiver waiting for a message are always resumed
   once the condition they wait for becomes true": the parking protocol of channel.rs
   (Model/Chan.v: senders parked on an async_event::Event, the receiver on a DiatomicWaker, one
   shared access per step, any number of senders, any capacity), for the programs GENERATED from the
   current channel.rs (translator T4) and every interleaving: a parked sender that nobody is going
   to wake faces a full mailbox, the parked receiver that nobody is going to wake faces an empty one. *)
Require Import NX.Model.Chan NX.gen.ChanProg NX.Proofs.ChanInv NX.Proofs.ChanProofs NX.Proofs.ChanGen.

Theorem c12_chan_source_is_proved_program : chan_gen = chan_fixed.
Proof. exact chan_gen_is_proved. Qed.
Print Assumptions c12_chan_source_is_proved_program.

Theorem c12_waiting_sender_is_resumed :
  forall c n ls x,
    let s := c_run chan_gen (c_init c n) ls in
    senders_settled s -> rpend s = false -> spc_ (S_ s x) = SSleep -> cocc s = ccap s.
Proof. intros c n ls x. exact (cinv_sender_sleeps_only_when_full _ x (chan_run_inv c n ls)). Qed.
Print Assumptions c12_waiting_sender_is_resumed.

Theorem c12_waiting_receiver_is_resumed :
  forall c n ls,
    let s := c_run chan_gen (c_init c n) ls in
    rpc_ s = RSleep -> rwk s = false ->
    (forall x, will_notify_recv (spc_ (S_ s x)) = false) -> cavail s = 0.
Proof. intros c n ls. exact (cinv_receiver_sleeps_only_when_empty _ (chan_run_inv c n ls)). Qed.
Print Assumptions c12_waiting_receiver_is_resumed.

Theorem c12_chan_never_above_capacity :
  forall c n ls, let s := c_run chan_gen (c_init c n) ls in cavail s <= cocc s /\ cocc s <= ccap s.
Proof. intros c n ls. exact (cinv_bounded _ (chan_run_inv c n ls)). Qed.
Print Assumptions c12_chan_never_above_capacity.
