(* C05 — Model isolation: one computation at a time per model. *)
Require Import NX.Base.Prelude NX.Base.ListX NX.Model.PQ NX.Model.Sim NX.Model.TaskSM NX.Model.TaskInv.
Require Import NX.Proofs.SimBasic NX.Proofs.NetProofs NX.Proofs.TaskProofs.

(* Executor level: a task's future is polled by at most one thread at a time
   whatever the interleaving of wakers, runners and cancellers (a second
   concurrent runner would bump badrun; at most one Runnable exists). *)
Theorem c05_one_poller :
  forall ops s, s = ts_run init_forget ops \/ s = ts_run init_spawn ops ->
    badrun s = 0 /\ badpoll s = 0 /\ queued s + active s <= 1.
Proof. intros ops s H. destruct (inv_meaning s (reachable_inv ops s H)) as (A & B & _ & D & _). auto. Qed.
Print Assumptions c05_one_poller.

(* Model level: while a model's task is inside its init or a handler -
   including the time it is suspended on a send or a query - it cannot start
   another message; the next message starts only after the frame is released. *)
Theorem c05_handler_sequential :
  forall b s t x f, nth_error (tasks s) t = Some x -> tfr x = Some f -> step_start b s t = None.
Proof. exact busy_task_cannot_start. Qed.
Print Assumptions c05_handler_sequential.

(* and only the model's own task ever consumes from its mailbox *)
Theorem c05_single_consumer :
  forall b s t s' x m' q,
    step_start b s t = Some s' -> nth_error (tasks s) t = Some x ->
    nth_error (boxes s) m' = Some q -> nth_error (boxes s') m' <> Some q -> tk x = TKModel m'.
Proof. exact start_only_own_mailbox. Qed.
Print Assumptions c05_single_consumer.
