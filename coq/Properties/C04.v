(* C04 — Run-to-quiescence.  Partial: see MANIFEST level note. *)
Require Import NX.Base.Prelude NX.Base.ListX NX.Model.PQ NX.Model.Sim.
Require Import NX.Proofs.SimBasic NX.Proofs.SimDriver NX.Proofs.NetProofs.

(* A run returns only in a state where no step of any task is enabled (or at
   the first failure): by definition of net_run, stated here as the fact that
   the verdict Ok is reached only through classify on the final state, which
   then has every mailbox empty. *)
Theorem c04_ok_all_processed :
  forall b s, err s = None -> count_ok s ->
    (classify b s = ROk <-> forall m q, nth_error (boxes s) m = Some q -> q = []).
Proof. intros b s H1 H2. exact (proj1 (classify_iff b s H1 H2)). Qed.
Print Assumptions c04_ok_all_processed.

(* No handler is left half-way through a send: in a quiescent, failure-free
   state whose mailboxes are all empty every port operation has made all its
   deliveries (mailbox capacities >= 1; delivery targets exist). *)
Theorem c04_no_half_done_send :
  forall b s,
    net_enabled b s = [] -> err s = None ->
    (forall m q, nth_error (boxes s) m = Some q -> q = []) ->
    (forall m sp, nth_error (bmodels b) m = Some sp -> 1 <= mcap sp) ->
    length (boxes s) = length (bmodels b) ->
    forall t x f, nth_error (tasks s) t = Some x -> tfr x = Some f ->
      (forall d m g, In d (fpend f) -> dtgt d = DModel m g -> m < length (bmodels b)) ->
      fpend f = [].
Proof. exact quiescent_no_pending_delivery. Qed.
Print Assumptions c04_no_half_done_send.

(* Whatever the schedule, a run changes neither the time nor the termination
   flag nor the clock position, and only appends handler-level log entries. *)
Theorem c04_run_frame :
  forall b fuel ch s nd s' nd', net_run b fuel ch s nd = Some (s', nd') -> frame_eq s s'.
Proof. exact net_run_frame. Qed.
Print Assumptions c04_run_frame.

(* Instance of schedule independence: the bench of C03 produces the same sink
   content and verdict under every choice list of length <= 3 over {0,1,2}. *)
Require Import NX.Properties.C03.
Fixpoint all_lists (n : nat) (alpha : list nat) : list (list nat) :=
  match n with
  | O => [[]]
  | S n' => [] :: flat_map (fun l => map (fun a => a :: l) alpha) (all_lists n' alpha)
  end.
Example c04_confluent_instance :
  forallb (fun ch =>
    match map ores (sim_exec c03_bench 500 [] [(CProcEvent 0 0 4, ch); (CReadSink 0, [])]) with
    | [ROk; ROk; RSink [11; 12]%Z] => true
    | _ => false
    end) (all_lists 3 [0; 1; 2]) = true.
Proof. vm_compute. reflexivity. Qed.

(* ---- schedule independence (the second sentence of the property), Model/Conf.v ----
   (a) the abstract statement: a step is a pool of messages, a schedule picks ANY message next, the
   handler's sends are a function `react` of the message content; every complete schedule logs the
   same multiset of invocations, for every message type, every `react`, every pool, unboundedly. *)
Require Import NX.Model.Conf NX.Proofs.ConfProofs NX.Proofs.ConfNet.

Theorem c04_schedule_independence_pool :
  forall (M : Type) (react : M -> list M) P L1,
    cruns react P L1 -> forall P' L2, Permutation P P' -> cruns react P' L2 -> Permutation L1 L2.
Proof. exact conf_unique. Qed.
Print Assumptions c04_schedule_independence_pool.

(* no schedule gets stuck or runs longer: a partial schedule of a pool that has one complete schedule
   can always be completed, to the same multiset *)
Theorem c04_every_schedule_completes_pool :
  forall (M : Type) (react : M -> list M) P L2 Q,
    pruns react P L2 Q -> forall L1, cruns react P L1 ->
    exists L3, cruns react Q L3 /\ Permutation L1 (L2 ++ L3).
Proof. exact conf_complete. Qed.
Print Assumptions c04_every_schedule_completes_pool.

(* outputs that are a function of the invocation (sink writes, replies) form the same multiset too *)
Theorem c04_schedule_independent_outputs :
  forall (M : Type) (react : M -> list M) (O : Type) (out : M -> list O) P L1 L2,
    cruns react P L1 -> cruns react P L2 -> Permutation (flat_map out L1) (flat_map out L2).
Proof. exact conf_outputs. Qed.
Print Assumptions c04_schedule_independent_outputs.

(* (b) the net model of Sim.v (the model the implementation is compared with) refines the pool: for a
   bench whose scripts are sends, queries and scheduling requests (bench_plain), every run of the net model under every
   choice list is a schedule of the pool of its start state, logging exactly the picked invocations *)
Theorem c04_net_run_is_pool_schedule :
  forall b, bench_plain b = true -> forall fuel ch s nd s' nd',
    NInv s -> net_run b fuel ch s nd = Some (s', nd') ->
    NInv s' /\ exists L,
      pruns (bench_react b) (pool_of b s) L (pool_of b s') /\
      invs (log s') = rev (filter cm_logged L) ++ invs (log s) /\
      sinks s' = fold_left sink_apply L (sinks s).
Proof. exact net_run_is_pool_schedule. Qed.
Print Assumptions c04_net_run_is_pool_schedule.

(* (c) hence, on the net model: two runs from one state under ANY two choice lists that end with an
   empty pool log the same multiset of handler invocations and perform the same multiset of sink writes *)
Theorem c04_schedule_independence :
  forall b s f1 ch1 nd1 s1 nd1' f2 ch2 nd2 s2 nd2',
    bench_plain b = true -> NInv s ->
    net_run b f1 ch1 s nd1 = Some (s1, nd1') -> net_run b f2 ch2 s nd2 = Some (s2, nd2') ->
    pool_of b s1 = [] -> pool_of b s2 = [] ->
    exists l1 l2 w1 w2,
      invs (log s1) = l1 ++ invs (log s) /\ invs (log s2) = l2 ++ invs (log s) /\ Permutation l1 l2 /\
      sinks s1 = fold_left sink_apply w1 (sinks s) /\ sinks s2 = fold_left sink_apply w2 (sinks s) /\
      Permutation w1 w2.
Proof. exact net_confluent. Qed.
Print Assumptions c04_schedule_independence.

Theorem c04_no_schedule_does_more :
  forall b s f1 ch1 nd1 s1 nd1' f2 ch2 nd2 s2 nd2',
    bench_plain b = true -> NInv s ->
    net_run b f1 ch1 s nd1 = Some (s1, nd1') -> net_run b f2 ch2 s nd2 = Some (s2, nd2') ->
    pool_of b s1 = [] ->
    exists l1 l2, invs (log s1) = l1 ++ invs (log s) /\ invs (log s2) = l2 ++ invs (log s) /\
                  length l2 <= length l1.
Proof. exact net_no_longer_run. Qed.
Print Assumptions c04_no_schedule_does_more.

(* (d) the first sentence, on the net model: on a VALID plain bench (capacities >= 1, connection targets
   exist, queries go to models with a larger index - bench_valid) a run from a well-formed state (QInv)
   that ends without failure and with every mailbox empty - which is when the call returns Ok - has an
   EMPTY POOL: every message sent has been processed, no handler is left half-way (not in a send, not
   waiting for a reply, not before a later op), no init is pending.  The proof carries, for every reply
   still awaited, a carrier of the request (in a sender's hands, in a mailbox, or served by a frame of a
   model with a larger index) through every step of the net model. *)
Require Import NX.Proofs.ConfQuiet.

Theorem c04_ok_means_every_computation_finished :
  forall b fuel ch s nd s' nd',
    bench_valid b -> NInv s -> QInv b s -> net_run b fuel ch s nd = Some (s', nd') ->
    err s' = None -> (forall m q, nth_error (boxes s') m = Some q -> q = []) ->
    pool_of b s' = [].
Proof. exact net_run_ok_pool_empty. Qed.
Print Assumptions c04_ok_means_every_computation_finished.

(* (e) hence schedule independence with no hypothesis on the final pools *)
Theorem c04_schedule_independence_of_ok_runs :
  forall b s f1 ch1 nd1 s1 nd1' f2 ch2 nd2 s2 nd2',
    bench_valid b -> NInv s -> QInv b s ->
    net_run b f1 ch1 s nd1 = Some (s1, nd1') -> net_run b f2 ch2 s nd2 = Some (s2, nd2') ->
    err s1 = None -> (forall m q, nth_error (boxes s1) m = Some q -> q = []) ->
    err s2 = None -> (forall m q, nth_error (boxes s2) m = Some q -> q = []) ->
    exists l1 l2 w1 w2,
      invs (log s1) = l1 ++ invs (log s) /\ invs (log s2) = l2 ++ invs (log s) /\ Permutation l1 l2 /\
      sinks s1 = fold_left sink_apply w1 (sinks s) /\ sinks s2 = fold_left sink_apply w2 (sinks s) /\
      Permutation w1 w2.
Proof. exact net_confluent_ok. Qed.
Print Assumptions c04_schedule_independence_of_ok_runs.

(* both invariants are kept by every step, and both hypotheses are decidable (evaluated at run time on the
   generated benches, at the start of every call) *)
Theorem c04_invariants_kept_by_every_step :
  forall b s l s', bench_valid b -> NInv s -> QInv b s -> net_step b s l = Some s' -> NInv s' /\ QInv b s'.
Proof.
  intros b s l s' BV NI Q H. split.
  - exact (proj1 (net_step_sim b s l s' (bv_plain b BV) NI H)).
  - exact (net_step_QInv b s l s' BV NI Q H).
Qed.
Print Assumptions c04_invariants_kept_by_every_step.

Theorem c04_bench_validity_check_is_sound : forall b, bench_valid_check b = true -> bench_valid b.
Proof. exact bench_valid_check_sound. Qed.
Print Assumptions c04_bench_validity_check_is_sound.
Theorem c04_state_check_is_sound : forall b s, qinv_check b s = true -> QInv b s.
Proof. exact qinv_check_sound. Qed.
Print Assumptions c04_state_check_is_sound.

Example c04_quiescence_nonvacuous :
  bench_valid conf_bench /\ QInv conf_bench conf_start /\
  exists s1 nd1, net_run conf_bench 500 [] conf_start false = Some (s1, nd1) /\ err s1 = None /\
                 forallb (fun q => match q with [] => true | _ => false end) (boxes s1) = true.
Proof. exact quiescence_nonvacuous. Qed.

(* the hypotheses are decidable and met: ninv_check is evaluated by the correspondence runner at the start
   of every init / process call of every plain bench, and the pool is checked empty whenever the call
   returns Ok (tools/props/confprops.py) *)
Theorem c04_invariant_check_is_sound : forall s, ninv_check s = true -> NInv s.
Proof. exact ninv_check_sound. Qed.
Print Assumptions c04_invariant_check_is_sound.

Example c04_schedule_independence_nonvacuous :
  bench_plain conf_bench = true /\ NInv conf_start /\
  exists s1 s2 nd1 nd2,
    net_run conf_bench 500 [] conf_start false = Some (s1, nd1) /\
    net_run conf_bench 500 [3; 1; 4; 1; 5; 9; 2; 6; 5; 3; 5; 8; 9; 7; 9] conf_start false = Some (s2, nd2) /\
    pool_of conf_bench s1 = [] /\ pool_of conf_bench s2 = [] /\
    invs (log s1) <> invs (log s2) /\ length (invs (log s1)) = 10.
Proof. exact net_confluent_nonvacuous. Qed.

(* ---- the worker-pool protocol of the multi-threaded executor (Model/Pool.v) ----
   For the barrier program GENERATED from the current executor/mt_executor.rs, for every pool size,
   every interleaving of the workers and the main thread at the granularity of one shared access and
   everything the tasks may do (wake tasks, send, receive): when Executor::run finds the pool idle and
   reads the message count, no task is left in the injector, in a local queue, in a fast slot or in a
   worker's hands, and no worker is running a task. *)
Require Import NX.Model.Pool NX.gen.PoolProg NX.Proofs.PoolProofs NX.Proofs.PoolCons NX.Proofs.PoolGen.

Theorem c04_pool_source_is_proved_program : barrier_gen = barrier_fixed.
Proof. exact gen_barrier_is_proved. Qed.
Print Assumptions c04_pool_source_is_proved_program.

Theorem c04_pool_source_call_order_is_modelled :
  skel_worker_gen = skel_worker_modelled /\ skel_sched_gen = skel_sched_modelled /\
  skel_run_gen = skel_run_modelled /\ skel_act_relaxed_gen = skel_act_relaxed_modelled /\
  skel_act_gen = skel_act_modelled /\ skel_try_inactive_gen = skel_try_inactive_modelled /\
  skel_set_inactive_gen = skel_set_inactive_modelled /\ skel_is_idle_gen = skel_is_idle_modelled /\
  skel_act_all_gen = skel_act_all_modelled.
Proof. exact gen_skeleton_is_modelled. Qed.
Print Assumptions c04_pool_source_call_order_is_modelled.

Theorem c04_pool_run_returns_only_at_quiescence :
  forall n ls, 1 <= n ->
    let s := p_run barrier_gen (p_init n) ls in
    pmain s = MRead -> Pool.quiescent s.
Proof. intros n ls Hn s H. exact (proj2 (inv_read_exact s (pool_run_inv n ls Hn) H)). Qed.
Print Assumptions c04_pool_run_returns_only_at_quiescence.

(* every task spawned before the run or woken during it has been taken from a queue and run (each exactly
   once: tasks are conserved by every step, for any barrier program) when Executor::run reads the idle pool *)
Theorem c04_pool_every_task_was_run :
  forall n ls, 1 <= n ->
    let s := p_run barrier_gen (p_init n) ls in
    pmain s = MRead -> pran s = psched s.
Proof. intros n ls Hn. exact (inv_all_tasks_run _ (pool_run_inv n ls Hn) (pool_run_cons _ n ls)). Qed.
Print Assumptions c04_pool_every_task_was_run.

Theorem c04_pool_tasks_conserved :
  forall B n ls, let s := p_run B (p_init n) ls in
    psched s = pran s + pinj s + PoolCons.sumload (pws s).
Proof. exact PoolCons.pool_run_cons. Qed.
Print Assumptions c04_pool_tasks_conserved.

(* during a run, an idle pool (no bit set in active_workers) means that nothing is left to do *)
Theorem c04_pool_idle_means_quiescent :
  forall n ls, 1 <= n ->
    let s := p_run barrier_gen (p_init n) ls in
    (forall v, wact (Pool.W s v) = false) -> pmain s <> MIdle -> (forall a, pmain s <> MAct a) ->
    Pool.quiescent s.
Proof. intros n ls Hn s H1 H2 H3. exact (proj2 (inv_idle_exact s (pool_run_inv n ls Hn) H1 H2 H3)). Qed.
Print Assumptions c04_pool_idle_means_quiescent.

(* a worker whose bit is clear holds no task and has folded its message count *)
Theorem c04_pool_work_only_on_active_workers :
  forall n ls j, 1 <= n ->
    let s := p_run barrier_gen (p_init n) ls in
    wact (Pool.W s j) = false -> no_work (Pool.W s j) /\ wcnt (Pool.W s j) = 0%Z.
Proof. intros n ls j Hn. exact (inv_work_only_on_active _ j (pool_run_inv n ls Hn)). Qed.
Print Assumptions c04_pool_work_only_on_active_workers.

(* the assertion of try_set_worker_inactive (the caller's bit is set) never fails *)
Theorem c04_pool_no_assert_failure :
  forall n ls, 1 <= n -> ppanic (p_run barrier_gen (p_init n) ls) = 0.
Proof. intros n ls Hn. apply PoolInv.i_pan, PoolInv.i_base, pool_run_inv, Hn. Qed.
Print Assumptions c04_pool_no_assert_failure.

(* "nor blocks forever": whenever Executor::run is blocked in park() without a pending unpark, some worker
   can perform its next step (it is not parked, or its token / the unpark that will give it is pending, or it
   is about to unpark the main thread): no reachable state has every thread blocked.  This is
   deadlock-freedom of the protocol, not termination (which also needs fairness and terminating tasks). *)
Theorem c04_pool_run_never_blocked_with_all_workers_blocked :
  forall n ls, 1 <= n ->
    let s := p_run barrier_gen (p_init n) ls in
    pmain s = MPark -> pmtok s = false -> exists j c s', p_step barrier_gen s (LW j c) = Some s'.
Proof. intros n ls Hn. exact (inv_no_global_deadlock _ (pool_run_inv n ls Hn)). Qed.
Print Assumptions c04_pool_run_never_blocked_with_all_workers_blocked.

(* non-vacuity: two workers, a task that wakes two tasks, one of which is stolen; the run ends *)
Example c04_pool_nonvacuous :
  let s := p_run barrier_gen (p_init 2) sched_fixed in
  pmain s = MRead /\ pmsg s = 0%Z /\ length (pws s) = 2.
Proof. vm_compute. auto. Qed.

(* ---- the injector queue (Model/Injector.v, tied to injector.rs by operation sequences) ----
   what Pool.v assumes of it: is_empty() is exact, pop_bucket returns a non-empty bucket unless nothing is
   stored, and tasks are neither lost nor duplicated *)
Require Import NX.Model.Injector NX.Proofs.InjectorProofs.

Theorem c04_injector_flag_exact :
  forall cap ops, 1 <= cap -> Forall (op_ok cap) ops ->
    let s := fst (inj_run cap inj_new ops) in iflag s = true <-> inj_tasks s = [].
Proof. intros cap ops Hc Ho. exact (inj_inv_flag_exact cap _ (inj_run_inv cap ops Hc Ho _ (inj_inv_new cap))). Qed.
Print Assumptions c04_injector_flag_exact.

Theorem c04_injector_invariant :
  forall cap ops, 1 <= cap -> Forall (op_ok cap) ops -> inj_inv cap (fst (inj_run cap inj_new ops)).
Proof. intros cap ops Hc Ho. exact (inj_run_inv cap ops Hc Ho _ (inj_inv_new cap)). Qed.
Print Assumptions c04_injector_invariant.

Theorem c04_injector_pop :
  forall cap s, inj_inv cap s ->
    match inj_pop s with
    | (s', None) => inj_tasks s = [] /\ s' = s
    | (s', Some b) => b <> [] /\ Permutation (inj_tasks s) (b ++ inj_tasks s')
    end.
Proof. exact inj_pop_spec. Qed.
Print Assumptions c04_injector_pop.

Theorem c04_injector_insert :
  forall cap s t, Permutation (inj_tasks (inj_insert cap s t)) (t :: inj_tasks s).
Proof. exact inj_insert_spec. Qed.
Print Assumptions c04_injector_insert.

Theorem c04_injector_push_bucket :
  forall s b, inj_tasks (inj_push_bucket s b) = inj_tasks s ++ b.
Proof. exact inj_push_spec. Qed.
Print Assumptions c04_injector_push_bucket.
