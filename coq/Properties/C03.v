(* C03 — Exactly-once delivery to every connected recipient.
   Per-mechanism statements for all inputs; the trace-level multiset equality
   is checked by the closure oracle on the implementation and by correspondence. *)
Require Import NX.Base.Prelude NX.Base.ListX NX.Model.PQ NX.Model.Sim.
Require Import NX.Proofs.SimBasic NX.Proofs.SimSched NX.Proofs.NetProofs NX.Proofs.NetTrace.

(* A send creates one delivery per connection whose filter accepts the value,
   carrying the mapped value, in connection order - and nothing else. *)
Theorem c03_deliveries_of_send :
  forall cs v, conn_deliveries cs v = map (fun c => delivery_of c v) (filter (fun c => keep_ok (ckeep c) v) cs).
Proof. exact conn_deliveries_spec. Qed.
Print Assumptions c03_deliveries_of_send.

(* A delivery to a live mailbox appends exactly that message to exactly the
   target mailbox (only when there is room: otherwise the sender stays blocked,
   nothing is dropped) and counts it. *)
Theorem c03_delivery_enqueues_once :
  forall b s t i x f m g thr sp q s',
    nth_error (tasks s) t = Some x -> tfr x = Some f ->
    nth_error (fpend f) i = Some {| dtgt := DModel m g; dthrow := thr |} ->
    nth_error (bmodels b) m = Some sp -> mplace sp <> Dropped -> nth_error (boxes s) m = Some q ->
    step_deliver b s t i = Some s' ->
    nth_error (boxes s') m = Some (q ++ [g]) /\ length q < mcap sp /\ inflight s' = (inflight s + 1)%Z.
Proof. exact deliver_appends. Qed.
Print Assumptions c03_delivery_enqueues_once.

(* The owner consumes exactly the head message of its own mailbox. *)
Theorem c03_start_consumes_once :
  forall b s t s' x m,
    step_start b s t = Some s' -> nth_error (tasks s) t = Some x -> tk x = TKModel m -> tinit x = false ->
    exists g rest, nth_error (boxes s) m = Some (g :: rest) /\ boxes s' = lupd (boxes s) m rest /\
                   inflight s' = (inflight s - 1)%Z.
Proof. exact start_pops_head. Qed.
Print Assumptions c03_start_consumes_once.

(* The sender does not move on (nor finish its handler) while a delivery of the
   current port operation is outstanding. *)
Theorem c03_send_completes_before_next_op :
  forall b s t x f d ds,
    nth_error (tasks s) t = Some x -> tfr x = Some f -> fpend f = d :: ds -> step_op b s t = None.
Proof. exact step_op_blocked. Qed.
Print Assumptions c03_send_completes_before_next_op.

(* Conservation in every reachable state: sent-and-enqueued minus consumed
   equals what the mailboxes hold; a run that returns Ok left no mailbox
   non-empty. *)
Theorem c03_conservation :
  forall b fuel ch s nd s' nd', count_ok s -> net_run b fuel ch s nd = Some (s', nd') -> count_ok s'.
Proof. exact net_run_count. Qed.
Print Assumptions c03_conservation.

Theorem c03_ok_means_all_consumed :
  forall b s, err s = None -> count_ok s ->
    (classify b s = ROk <-> forall m q, nth_error (boxes s) m = Some q -> q = []).
Proof. intros b s H1 H2. exact (proj1 (classify_iff b s H1 H2)). Qed.
Print Assumptions c03_ok_means_all_consumed.

(* Trace level, for ANY execution (any sequence of enabled steps = any schedule,
   any number of steps) and any mailbox: its content is its initial content
   followed by the messages enqueued into it, in enqueue order, minus the prefix
   consumed by its owner.  Nothing lost, duplicated, reordered or invented; the
   owner consumes exactly the first deqs messages, in order. *)
Theorem c03_mailbox_trace :
  forall b ls s s' m q,
    net_exec b s ls = Some s' -> nth_error (boxes s) m = Some q ->
    deqs b s ls m <= length (q ++ enqs b s ls m) /\
    nth_error (boxes s') m = Some (skipn (deqs b s ls m) (q ++ enqs b s ls m)).
Proof. exact mailbox_trace. Qed.
Print Assumptions c03_mailbox_trace.

(* a run of the executor under any choice sequence is such an execution, ending
   in a state where no step is enabled *)
Theorem c03_mailbox_trace_run :
  forall b fuel ch s nd s' nd',
    net_run b fuel ch s nd = Some (s', nd') -> exists ls, net_exec b s ls = Some s' /\ net_enabled b s' = [].
Proof. exact net_run_is_exec. Qed.
Print Assumptions c03_mailbox_trace_run.

(* non-vacuity: broadcast through plain / map / filter_map connections to two
   models and a sink with a capacity-1 mailbox (the sender blocks) *)
Definition c03_bench : bench :=
  {| bmodels := [{| mcap := 2; mplace := Added; mparent := None; mnamed := true; minit := [];
                    mhandlers := [[OSend 0 EIn; OSend 0 (EInPlus 1)]]; mrepliers := [];
                    mouts := [[{| ckeep := KAll; cadd := 0; ctgt := TgtModel 1 0 |};
                               {| ckeep := KEven; cadd := 100; ctgt := TgtModel 1 0 |};
                               {| ckeep := KAll; cadd := 7; ctgt := TgtSink 0 |}]]; mreqs := [] |};
                 {| mcap := 1; mplace := Added; mparent := None; mnamed := true; minit := [];
                    mhandlers := [[]]; mrepliers := []; mouts := []; mreqs := [] |}];
     bsinks := [SpecBuf 8]; bsources := []; bclock := []; btol := None; bt0 := 0;
     bugF1 := false; bugF2 := false; bugF3 := false; bugF4 := false |}.
Example c03_nonvacuous :
  map ores (sim_exec c03_bench 500 [] [(CProcEvent 0 0 4, [3;1;4;1;5;9;2;6]); (CReadSink 0, [])])
  = [ROk; ROk; RSink [11; 12]%Z].
Proof. vm_compute. reflexivity. Qed.

(* ---- exactly once, end to end, for a whole call (Model/Conf.v, Proofs/ConfNet.v) ----
   On a plain bench (scripts of sends, queries and scheduling requests, every model added) a call of the net model that ends
   with an empty pool has picked a list L of messages - the handler / replier / init invocations it
   logged plus the sink writes it performed - which is, as a multiset, exactly the messages present at
   the start plus everything the invoked handlers sent (after each connection's map / filter):
   nothing lost, nothing duplicated, nothing invented, whatever the schedule. *)
Require Import NX.Model.Conf NX.Proofs.ConfProofs NX.Proofs.ConfNet.

Theorem c03_processed_is_exactly_what_was_sent :
  forall b fuel ch s nd s' nd',
    bench_plain b = true -> NInv s -> net_run b fuel ch s nd = Some (s', nd') -> pool_of b s' = [] ->
    exists L, Permutation L (pool_of b s ++ flat_map (bench_react b) L) /\
              invs (log s') = rev (filter cm_logged L) ++ invs (log s) /\
              sinks s' = fold_left sink_apply L (sinks s).
Proof. exact net_processed_is_sent. Qed.
Print Assumptions c03_processed_is_exactly_what_was_sent.

(* ---- the blocking protocol of the mailbox channel (Model/Chan.v) ----
   Sim.v lets a send proceed exactly when the target mailbox has room and a model start exactly when its
   mailbox holds a message.  Chan.v models what channel.rs does to achieve this (senders parked on an
   async_event::Event, the receiver on a DiatomicWaker, at one shared access per step, any number of
   senders) and proves, for the programs GENERATED from the current channel.rs and for every interleaving:
   a parked sender that nobody is going to wake faces a full mailbox, and the parked receiver that nobody
   is going to wake faces an empty one - no wake-up is lost, so no accepted message waits for ever in front
   of free room and no queued message is left unprocessed by a sleeping receiver. *)
Require Import NX.Model.Chan NX.gen.ChanProg NX.Proofs.ChanInv NX.Proofs.ChanProofs NX.Proofs.ChanGen.

Theorem c03_chan_source_is_proved_program : chan_gen = chan_fixed.
Proof. exact chan_gen_is_proved. Qed.
Print Assumptions c03_chan_source_is_proved_program.

Theorem c03_chan_sender_sleeps_only_when_full :
  forall c n ls x,
    let s := c_run chan_gen (c_init c n) ls in
    senders_settled s -> rpend s = false -> spc_ (S_ s x) = SSleep -> cocc s = ccap s.
Proof. intros c n ls x. exact (cinv_sender_sleeps_only_when_full _ x (chan_run_inv c n ls)). Qed.
Print Assumptions c03_chan_sender_sleeps_only_when_full.

Theorem c03_chan_receiver_sleeps_only_when_empty :
  forall c n ls,
    let s := c_run chan_gen (c_init c n) ls in
    rpc_ s = RSleep -> rwk s = false ->
    (forall x, will_notify_recv (spc_ (S_ s x)) = false) -> cavail s = 0.
Proof. intros c n ls. exact (cinv_receiver_sleeps_only_when_empty _ (chan_run_inv c n ls)). Qed.
Print Assumptions c03_chan_receiver_sleeps_only_when_empty.

Theorem c03_chan_bounded :
  forall c n ls, let s := c_run chan_gen (c_init c n) ls in cavail s <= cocc s /\ cocc s <= ccap s.
Proof. intros c n ls. exact (cinv_bounded _ (chan_run_inv c n ls)). Qed.
Print Assumptions c03_chan_bounded.

Theorem c03_chan_invariant :
  forall c n ls, CInv (c_run chan_gen (c_init c n) ls).
Proof. exact chan_run_inv. Qed.
Print Assumptions c03_chan_invariant.

(* a receiver that frees the slot without notifying a sender (the closest expressible form of "notify only
   when the queue was full") leaves a sender asleep in front of a free slot *)
Example c03_chan_no_notify_refuted :
  let s := c_run chan_no_notify (c_init 1 2) sched_lost in
  spc_ (S_ s 1) = SSleep /\ sin (S_ s 1) = true /\ swk (S_ s 1) = false /\ cocc s = 0 /\ ccap s = 1 /\ rpend s = false.
Proof. exact chan_no_notify_refuted. Qed.
