(* Small list utilities shared by the models. *)
Require Import NX.Base.Prelude.

Fixpoint lupd {A} (l : list A) (i : nat) (x : A) : list A :=
  match l, i with
  | [], _ => []
  | _ :: r, O => x :: r
  | y :: r, S i' => y :: lupd r i' x
  end.

Fixpoint ldel {A} (l : list A) (i : nat) : list A :=
  match l, i with
  | [], _ => []
  | _ :: r, O => r
  | y :: r, S i' => y :: ldel r i'
  end.

Fixpoint lfind_idx {A} (p : A -> bool) (l : list A) (i : nat) : option nat :=
  match l with
  | [] => None
  | x :: r => if p x then Some i else lfind_idx p r (S i)
  end.

Fixpoint seqn (start len : nat) : list nat :=
  match len with O => [] | S n => start :: seqn (S start) n end.

Definition opt_all {A} (l : list (option A)) : bool :=
  forallb (fun o => match o with Some _ => true | None => false end) l.

Fixpoint opt_vals {A} (l : list (option A)) : list A :=
  match l with
  | [] => []
  | Some x :: r => x :: opt_vals r
  | None :: r => opt_vals r
  end.

Lemma lupd_length {A} (l : list A) i x : length (lupd l i x) = length l.
Proof. revert i; induction l as [|y r IH]; intros [|i]; cbn; auto. Qed.

Lemma nth_error_lupd_eq {A} (l : list A) i x : i < length l -> nth_error (lupd l i x) i = Some x.
Proof.
  revert i; induction l as [|y r IH]; intros [|i] H; cbn in *; try lia; auto.
  apply IH; lia.
Qed.

Lemma nth_error_lupd_ne {A} (l : list A) i j x : i <> j -> nth_error (lupd l i x) j = nth_error l j.
Proof.
  revert i j; induction l as [|y r IH]; intros [|i] [|j] H; cbn; auto; try congruence.
Qed.

Lemma In_seqn len : forall st m, In m (seqn st len) <-> st <= m < st + len.
Proof.
  induction len as [|len IH]; intros st m; cbn [seqn In]; [lia|].
  rewrite IH. lia.
Qed.

Lemma nth_error_lupd_inv {A} (l : list A) i j x y :
  nth_error (lupd l i x) j = Some y -> (j = i /\ y = x) \/ (j <> i /\ nth_error l j = Some y).
Proof.
  intros H. destruct (Nat.eq_dec j i) as [->|Hne].
  - left. split; [reflexivity|]. destruct (Nat.lt_ge_cases i (length l)) as [L|L].
    + rewrite nth_error_lupd_eq in H by exact L. congruence.
    + rewrite <- (lupd_length l i x) in L. apply nth_error_None in L. congruence.
  - right. split; [exact Hne|]. rewrite nth_error_lupd_ne in H by congruence. exact H.
Qed.

Lemma nth_lupd {A} (l : list A) i j x d :
  nth j (lupd l i x) d = if Nat.eqb j i && (i <? length l) then x else nth j l d.
Proof.
  revert i j; induction l as [|y l IH]; intros i j.
  - cbn [lupd length]. rewrite andb_false_r. reflexivity.
  - destruct i as [|i], j as [|j]; cbn [lupd nth length Nat.eqb andb]; try reflexivity. apply IH.
Qed.

Lemma Forall_lupd {A} (P : A -> Prop) (l : list A) i x : Forall P l -> P x -> Forall P (lupd l i x).
Proof.
  intros H Hx. revert i. induction H as [|y r Hy Hr IH]; intros [|i]; cbn [lupd]; constructor; auto.
Qed.

Lemma nth_error_some_lt {A} (l : list A) i x : nth_error l i = Some x -> i < length l.
Proof. intros H. apply nth_error_Some. congruence. Qed.

Lemma nth_error_app_stable {A} (l l' : list A) i x : nth_error l i = Some x -> nth_error (l ++ l') i = Some x.
Proof. intros H. rewrite nth_error_app1; [exact H|]. eapply nth_error_some_lt, H. Qed.

Lemma nth_error_snoc_inv {A} (l : list A) y i x :
  nth_error (l ++ [y]) i = Some x -> nth_error l i = Some x \/ (i = length l /\ x = y).
Proof.
  intros H. destruct (Nat.lt_ge_cases i (length l)) as [L|L].
  - rewrite nth_error_app1 in H by exact L. auto.
  - rewrite nth_error_app2 in H by exact L. destruct (i - length l) as [|n] eqn:E.
    + cbn in H. injection H as <-. right. split; [lia|reflexivity].
    + destruct n; discriminate H.
Qed.

Lemma seqn_length len : forall st, length (seqn st len) = len.
Proof. induction len as [|len IH]; intros st; cbn; [reflexivity|rewrite IH; reflexivity]. Qed.

Lemma nth_error_seqn len : forall st i, nth_error (seqn st len) i = if Nat.ltb i len then Some (st + i) else None.
Proof.
  induction len as [|len IH]; intros st [|i]; cbn [seqn nth_error]; try reflexivity.
  - rewrite Nat.add_0_r. reflexivity.
  - rewrite IH, Nat.add_succ_comm. reflexivity.
Qed.

Lemma nth_error_split_lupd {A} (l : list A) i x :
  nth_error l i = Some x ->
  exists pre post, l = pre ++ x :: post /\ length pre = i /\ forall y, lupd l i y = pre ++ y :: post.
Proof.
  revert i. induction l as [|z r IH]; intros [|i] H; cbn in H; try discriminate.
  - injection H as ->. exists [], r. auto.
  - destruct (IH i H) as (pre & post & -> & <- & U). exists (z :: pre), post.
    split; [reflexivity|]. split; [reflexivity|]. intros y. cbn. rewrite U. reflexivity.
Qed.

Lemma nth_error_snoc_all {A} (P : nat -> A -> Prop) (l : list A) y :
  (forall i x, nth_error l i = Some x -> P i x) -> P (length l) y ->
  forall i x, nth_error (l ++ [y]) i = Some x -> P i x.
Proof.
  intros H Hy i x Hi. apply nth_error_snoc_inv in Hi. destruct Hi as [Hi|[-> ->]]; [exact (H i x Hi)|exact Hy].
Qed.

Lemma filter_length_le {A} (f : A -> bool) (l : list A) : length (filter f l) <= length l.
Proof. induction l as [|x r IH]; cbn; [lia|]. destruct (f x); cbn; lia. Qed.

Lemma NoDup_seqn len : forall st, NoDup (seqn st len).
Proof.
  induction len as [|len IH]; intros st; cbn [seqn]; constructor; [|apply IH].
  intros H. apply In_seqn in H. lia.
Qed.

Lemma map_lupd {A B} (f : A -> B) (l : list A) i x : map f (lupd l i x) = lupd (map f l) i (f x).
Proof. revert i; induction l as [|y r IH]; intros [|i]; cbn; auto. rewrite IH; auto. Qed.

Lemma lupd_same {A} (l : list A) i x : nth_error l i = Some x -> lupd l i x = l.
Proof.
  revert i; induction l as [|y r IH]; intros [|i] H; cbn in *; try congruence.
  rewrite IH; auto.
Qed.

Lemma In_nth_iff {A} (l : list A) x : In x l <-> exists i, nth_error l i = Some x.
Proof. split; [apply In_nth_error|intros [i H]; eapply nth_error_In; eauto]. Qed.

Lemma removelast_length {A} (l : list A) : length (removelast l) = length l - 1.
Proof. rewrite removelast_firstn_len, firstn_length. lia. Qed.

Lemma nth_error_removelast {A} (l : list A) i x :
  nth_error (removelast l) i = Some x <-> i < length l - 1 /\ nth_error l i = Some x.
Proof.
  destruct l as [|y l _] using rev_ind; [destruct i; cbn; intuition (discriminate || lia)|].
  rewrite removelast_last, app_length, Nat.add_sub. split.
  - intros H. split; [eapply nth_error_some_lt, H|apply nth_error_app_stable, H].
  - intros [H1 H2]. rewrite nth_error_app1 in H2; assumption.
Qed.

Lemma last_nth_error {A} (l : list A) d : l <> [] -> nth_error l (length l - 1) = Some (last l d).
Proof.
  intros H. destruct (exists_last H) as (r & x & ->).
  rewrite last_last, app_length, Nat.add_sub, nth_error_app2, Nat.sub_diag; [reflexivity|lia].
Qed.

Lemma lupd_snoc {A} (l : list A) x y : lupd (l ++ [x]) (length l) y = l ++ [y].
Proof. induction l as [|z l IH]; cbn; [reflexivity|rewrite IH; reflexivity]. Qed.

Lemma rev_swap {A} (l l' : list A) : rev l = l' -> l = rev l'.
Proof. intros <-. symmetry. apply rev_involutive. Qed.

Lemma firstn_snoc_nth {A} (l : list A) n x : nth_error l n = Some x -> firstn (S n) l = firstn n l ++ [x].
Proof.
  revert n; induction l as [|y r IH]; intros [|n] H; cbn in *; try discriminate.
  - injection H as ->. reflexivity.
  - f_equal. apply IH. exact H.
Qed.

Lemma opt_all_false {A} (l : list (option A)) : opt_all l = false -> exists j, nth_error l j = Some None.
Proof.
  unfold opt_all. induction l as [|o r IH]; cbn; [discriminate|].
  destruct o; cbn.
  - intros H. destruct (IH H) as [j Hj]. exists (S j). exact Hj.
  - intros _. exists 0. reflexivity.
Qed.

Lemma flat_map_nil {A B} (F : A -> list B) l : (forall x, In x l -> F x = []) -> flat_map F l = [].
Proof.
  induction l as [|x r IH]; intros H; [reflexivity|]. cbn. rewrite (H x (or_introl eq_refl)).
  apply IH. intros y Hy. apply H. right. exact Hy.
Qed.

Lemma indexed_all_nth {A} (p : nat -> A -> bool) (all : nat -> list A -> bool) :
  (forall i x r, all i (x :: r) = p i x && all (S i) r) ->
  forall l i0 i x, all i0 l = true -> nth_error l i = Some x -> p (i0 + i) x = true.
Proof.
  intros E. induction l as [|y r IH]; intros i0 [|i] x H Hi; try discriminate Hi;
    rewrite E in H; apply andb_prop in H; destruct H as [H1 H2].
  - injection Hi as <-. rewrite Nat.add_0_r. exact H1.
  - rewrite <- Nat.add_succ_comm. exact (IH _ _ _ H2 Hi).
Qed.

Lemma concat_snoc {A} (ls : list (list A)) l : concat (ls ++ [l]) = concat ls ++ l.
Proof. rewrite concat_app. cbn [concat]. rewrite app_nil_r. reflexivity. Qed.

Lemma nth_error_nth_lt {A} (l : list A) i x d : nth_error l i = Some x -> nth i l d = x /\ i < length l.
Proof. intros H. split; [apply nth_error_nth; exact H|eapply nth_error_some_lt, H]. Qed.

Lemma nth_lupd_lt {A} (l : list A) i j x d : i < length l ->
  nth j (lupd l i x) d = if Nat.eqb j i then x else nth j l d.
Proof. intros H. rewrite nth_lupd. apply Nat.ltb_lt in H. rewrite H, andb_true_r. reflexivity. Qed.

Lemma list_sum_map_lupd {A} (f : A -> nat) l i x d : i < length l ->
  list_sum (map f (lupd l i x)) + f (nth i l d) = list_sum (map f l) + f x.
Proof.
  revert i; induction l as [|y l IH]; intros [|i] H; cbn [length] in H; cbn [lupd map list_sum nth fold_right]; try lia.
  apply Nat.succ_lt_mono in H. specialize (IH i H). unfold list_sum in IH. lia.
Qed.

Lemma list_sum_map_zero {A} (f : A -> nat) l d : (forall i, f (nth i l d) = 0) -> list_sum (map f l) = 0.
Proof.
  induction l as [|y l IH]; intros H; [reflexivity|]. cbn [map list_sum fold_right].
  rewrite (H 0 : f y = 0). apply IH. intros i. apply (H (S i)).
Qed.

Lemma list_sum_map_ge {A} (f : A -> nat) l i d : i < length l -> f (nth i l d) <= list_sum (map f l).
Proof.
  revert i; induction l as [|y l IH]; intros [|i] H; cbn [length] in H; cbn [map list_sum fold_right nth]; try lia.
  apply Nat.succ_lt_mono in H. specialize (IH i H). unfold list_sum in IH. lia.
Qed.

Lemma list_sum_map_pos {A} (f : A -> nat) l d : 0 < list_sum (map f l) -> exists i, i < length l /\ 0 < f (nth i l d).
Proof.
  induction l as [|y l IH]; cbn [map list_sum fold_right length]; [lia|]. intros H.
  destruct (f y) eqn:E; [|exists 0; cbn [nth]; lia].
  destruct (IH H) as (i & Hi & Hf). exists (S i). cbn [nth]. split; [lia|exact Hf].
Qed.

Lemma forallb_nth {A} (p : A -> bool) l d i : forallb p l = true -> p d = true -> p (nth i l d) = true.
Proof.
  revert i. induction l as [|x r IH]; intros [|i] H Hd; cbn in *; auto;
    apply andb_prop in H; destruct H as [H1 H2]; auto.
Qed.

Lemma perm_filter {A} (p : A -> bool) l1 l2 : Permutation l1 l2 -> Permutation (filter p l1) (filter p l2).
Proof.
  induction 1 as [|x l l' _ IH|x y l|l l' l'' _ IH1 _ IH2]; cbn [filter].
  - reflexivity.
  - destruct (p x); [constructor|]; exact IH.
  - destruct (p x), (p y); try reflexivity. apply perm_swap.
  - etransitivity; eassumption.
Qed.

Lemma perm_cons_split {A} (m m' : A) rest rest' :
  Permutation (m :: rest) (m' :: rest') ->
  (m = m' /\ Permutation rest rest') \/
  exists r2, Permutation rest (m' :: r2) /\ Permutation rest' (m :: r2).
Proof.
  intros H. destruct (Permutation_vs_cons_inv H) as ([|x l1] & l2 & E); injection E as -> ->.
  - left. split; [reflexivity | exact (Permutation_cons_inv H)].
  - right. exists (l1 ++ l2). split; [symmetry; apply Permutation_middle|].
    apply (Permutation_cons_app_inv (x :: l1) l2 (a := m')). symmetry. exact H.
Qed.

Lemma ldel_perm {A} (l : list A) i x : nth_error l i = Some x -> Permutation l (x :: ldel l i).
Proof.
  revert i. induction l as [|y r IH]; intros [|i] H; cbn in *; try discriminate.
  - injection H as ->. reflexivity.
  - rewrite (IH _ H) at 1. apply perm_swap.
Qed.

Lemma flat_map_lupd {A B} (F : A -> list B) l : forall t x, nth_error l t = Some x ->
  exists rest, Permutation (flat_map F l) (F x ++ rest) /\
               forall x', Permutation (flat_map F (lupd l t x')) (F x' ++ rest).
Proof.
  intros t x H. destruct (nth_error_split_lupd _ _ _ H) as (pre & post & -> & _ & U).
  exists (flat_map F pre ++ flat_map F post).
  split; [|intros x'; rewrite U]; rewrite flat_map_app; cbn [flat_map]; apply Permutation_app_swap_app.
Qed.
