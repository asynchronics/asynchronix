(* The countdown of the concurrent task set: only take_scheduled sets it, only a successful push
   decrements it, and the push that takes it from one to zero calls notify() exactly once. *)
Require Import NX.Base.Prelude NX.Model.TaskSetConc NX.Proofs.TaskSetConcProofs.

Theorem tk_step_countdown s l s' :
  tk_step s l = Some s' ->
  (* unchanged *)
  (fst (thead s') = fst (thead s) /\ tnotif s' = tnotif s) \/
  (* a successful push: decrement (if non-zero), notify iff it was one *)
  (exists j w, l = LStep (S j) false /\ nth_error (tkwakers s) j = Some w /\ kpc w = 4 /\ thead s = khd w /\
     fst (thead s') = fst (thead s) - 1 /\ snd (thead s') = Some (kti w) /\
     tnotif s' = tnotif s + (if Nat.eqb (fst (thead s)) 1 then 1 else 0)) \/
  (* take_scheduled(k) by the owner: the countdown becomes k if nothing was scheduled, else zero *)
  (exists k hd, cph s = CTake k (Some hd) /\ thead s = hd /\ tnotif s' = tnotif s /\
     thead s' = match snd hd with None => (k, None) | Some _ => (0, None) end).
Proof.
  intros H. destruct l as [[|j] b|[k| |]]; cbn [tk_step] in H.
  - (* the consumer: only the compare-exchange of take_scheduled writes head *)
    unfold cons_step in H.
    destruct (cph s) as [|k [hd|]|[idx|]|[idx|] [nx|]] eqn:Ec; try discriminate; try (injection H as <-; left; split; reflexivity).
    + destruct (negb b && hd_eqb (thead s) hd) eqn:Eb; injection H as <-; [|left; split; reflexivity].
      apply andb_true_iff in Eb. destruct Eb as [_ Eb]. apply hd_eqb_true in Eb.
      right. right. exists k, hd. cbn. auto.
    + destruct (nth idx (tnext s) NSleep); injection H as <-; left; split; reflexivity.
    + destruct nx; injection H as <-; left; split; reflexivity.
  - (* a waker: only the compare-exchange of the push writes head *)
    destruct (nth_error (tkwakers s) j) as [w|] eqn:Ej; [|discriminate]. unfold wake_step in H.
    destruct (kpc w) as [|[|[|[|[|[|n]]]]]] eqn:Epc; try discriminate; try (injection H as <-; left; split; reflexivity).
    + destruct (knxt w); injection H as <-; left; split; reflexivity.
    + destruct (negb b && nst_eqb _ _); injection H as <-; left; split; reflexivity.
    + destruct (negb b && nst_eqb _ _); injection H as <-; left; split; reflexivity.
    + destruct (negb b && hd_eqb (thead s) (khd w)) eqn:Eb; injection H as <-; [|left; split; reflexivity].
      apply andb_true_iff in Eb. destruct Eb as [Eb1 Eb]. apply hd_eqb_true in Eb. apply negb_true_iff in Eb1. subst b.
      right. left. exists j, w. rewrite Eb. cbn. repeat split; auto.
  - destruct (cph s); try discriminate. injection H as <-. left. split; reflexivity.
  - discriminate.
  - destruct (cph s); try discriminate. injection H as <-. left. split; reflexivity.
Qed.

(* the case used by BroadcastFuture (take_scheduled(1)): once the owner has been told that
   nothing is scheduled and the countdown is one, the next successful push notifies *)
Corollary tk_armed_push_notifies s j w s' :
  fst (thead s) = 1 -> nth_error (tkwakers s) j = Some w -> kpc w = 4 -> thead s = khd w ->
  tk_step s (LStep (S j) false) = Some s' ->
  tnotif s' = S (tnotif s) /\ fst (thead s') = 0 /\ snd (thead s') = Some (kti w).
Proof.
  intros H1 Hj Hpc Hh Hs. cbn [tk_step] in Hs. rewrite Hj in Hs. unfold wake_step in Hs.
  rewrite Hpc, Hh, hd_eqb_refl in Hs. injection Hs as <-.
  cbn [tnotif thead fst snd]. rewrite <- Hh, H1. cbn. split; [lia|auto].
Qed.
