(* Order of the actions fired by one step: the critical section pulls entries
   in strictly increasing (key, epoch) order, so within a group (one key =
   one (time, origin)) the ops are in scheduling (epoch) order, and groups
   follow the key order. *)
Require Import NX.Base.Prelude NX.Base.ListX NX.Model.PQ NX.Model.Sim.
Require Import NX.Proofs.PQProofs NX.Proofs.SimQueue NX.Proofs.SimTerm.

(* ghost twin of pull_next / crit that keeps the pulled ITEMS (key, epoch, action) *)
Definition pull_next_i (q : pq action) : option (item action * pq action) :=
  match pq_peek_item q with
  | Some m =>
      let q1 := {| items := remove_epoch (iepoch m) (items q); next_epoch := next_epoch q |} in
      Some (m, match aperiod (ival m) with
               | Some p => pq_insert q1 ((fst (ikey m) + p)%Z, snd (ikey m)) (ival m)
               | None => q1
               end)
  | None => None
  end.

Lemma pull_next_i_spec q : pull_next q = option_map (fun p => (ikey (fst p), ival (fst p), snd p)) (pull_next_i q).
Proof.
  unfold pull_next, pull_next_i, pq_pull. destruct (pq_peek_item q) as [m|]; cbn; [|reflexivity].
  destruct (aperiod (ival m)); reflexivity.
Qed.

Fixpoint crit_i (fuel : nat) (s : state) (q : pq action) (bound : option Z) (cur : key)
         (group : list (item action)) (groups : list (list (item action)))
  : option (pq action * list (list (item action))) :=
  match fuel with
  | O => None
  | S f =>
      match pull_next_i q with
      | None => None
      | Some (m, q1) =>
          let '(nk, q2) := peek_next (S (pq_len q1)) s q1 bound in
          if opt_key_eqb nk cur then crit_i f s q2 bound cur (group ++ [m]) groups
          else
            let groups' := groups ++ [group ++ [m]] in
            match nk with
            | Some k => if Z.eqb (fst k) (fst cur) then crit_i f s q2 bound k [] groups'
                        else Some (q2, groups')
            | None => Some (q2, groups')
            end
      end
  end.

Definition ops_of (g : list (item action)) : list op := map (fun m => aop (ival m)) g.

Lemma crit_i_spec fuel : forall s q bound cur group groups,
  crit fuel s q bound cur (ops_of group) (map ops_of groups) =
  option_map (fun p => (fst p, map ops_of (snd p))) (crit_i fuel s q bound cur group groups).
Proof.
  induction fuel as [|f IH]; intros s q bound cur group groups; cbn [crit crit_i]; [reflexivity|].
  rewrite pull_next_i_spec. destruct (pull_next_i q) as [[m q1]|]; cbn [option_map fst snd]; [|reflexivity].
  destruct (peek_next (S (pq_len q1)) s q1 bound) as [nk q2].
  assert (E1 : ops_of group ++ [aop (ival m)] = ops_of (group ++ [m])) by (unfold ops_of; rewrite map_app; reflexivity).
  assert (E2 : map ops_of groups ++ [ops_of group ++ [aop (ival m)]] = map ops_of (groups ++ [group ++ [m]])).
  { rewrite map_app. cbn [map]. rewrite E1. reflexivity. }
  destruct (opt_key_eqb nk cur).
  - rewrite E1. apply IH.
  - rewrite E2. destruct nk as [k|]; [|reflexivity].
    destruct (Z.eqb (fst k) (fst cur)); [|reflexivity]. apply (IH s q2 bound k [] (groups ++ [group ++ [m]])).
Qed.

Fixpoint strictly_sorted (l : list (item action)) : Prop :=
  match l with
  | [] => True
  | x :: r => (forall y, In y r -> item_lt action x y) /\ strictly_sorted r
  end.

Lemma strictly_sorted_app l x :
  strictly_sorted l -> (forall y, In y l -> item_lt action y x) -> strictly_sorted (l ++ [x]).
Proof.
  induction l as [|a r IH]; intros H1 H2; cbn [app strictly_sorted]; [split; [intros y []|exact I]|].
  destruct H1 as [A B]. split.
  - intros y Hy. apply in_app_or in Hy. destruct Hy as [Hy|[<-|[]]]; [apply A; exact Hy|apply H2; left; reflexivity].
  - apply IH; [exact B|]. intros y Hy. apply H2. right. exact Hy.
Qed.

(* The pulled items, in pull order (all groups concatenated, then the current group), are strictly increasing
   for (key, epoch), and every entry still queued is after all of them: each round pulls the strict minimum m
   of the queue and leaves only entries after m (crit_round). *)
Lemma crit_i_sorted_below fuel : forall s q bound cur group groups q' gs,
  crit_pre q cur ->
  strictly_sorted (concat groups ++ group) ->
  (forall x y, In x (concat groups ++ group) -> In y (items q) -> item_lt action x y) ->
  crit_i fuel s q bound cur group groups = Some (q', gs) ->
  strictly_sorted (concat gs) /\
  (forall x y, In x (concat gs) -> In y (items q') -> item_lt action x y).
Proof.
  induction fuel as [|f IH]; intros s q bound cur group groups q' gs PRE HS HB H; cbn [crit_i] in H; [discriminate|].
  destruct (pull_next_i q) as [[m q1]|] eqn:EPN; [|discriminate].
  assert (EPN' : pull_next q = Some (ikey m, ival m, q1)) by (rewrite pull_next_i_spec, EPN; reflexivity).
  destruct (peek_next (S (pq_len q1)) s q1 bound) as [nk q2] eqn:EN.
  destruct (crit_round _ _ _ _ _ _ _ _ _ _ PRE EPN' EN) as [m' F].
  assert (m' = m) by (unfold pull_next_i in EPN; rewrite (cr_peek F) in EPN; injection EPN as -> _; reflexivity). subst m'.
  pose proof (cr_after F) as AFTER.
  assert (S1 : strictly_sorted ((concat groups ++ group) ++ [m])).
  { apply strictly_sorted_app; [exact HS|]. intros y Hy. apply HB; [exact Hy|exact (cr_in F)]. }
  assert (B1 : forall x y, In x ((concat groups ++ group) ++ [m]) -> In y (items q2) -> item_lt action x y).
  { intros x y Hx Hy. apply in_app_or in Hx. destruct Hx as [Hx|[<-|[]]]; [|apply AFTER, Hy].
    eapply item_lt_trans; [apply HB; [exact Hx|exact (cr_in F)]|apply AFTER, Hy]. }
  assert (EC : concat (groups ++ [group ++ [m]]) ++ [] = (concat groups ++ group) ++ [m]).
  { rewrite concat_snoc, app_nil_r, app_assoc. reflexivity. }
  destruct nk as [k'|]; cbn [opt_key_eqb] in H.
  - destruct (key_eqb_spec k' cur) as [->|NE].
    + eapply IH; [apply (cr_next F); reflexivity| | |exact H]; rewrite app_assoc; assumption.
    + destruct (Z.eqb_spec (fst k') (fst cur)) as [E|E].
      * eapply IH; [apply (cr_next F); auto| | |exact H]; rewrite EC; assumption.
      * injection H as <- <-. rewrite app_nil_r in EC. rewrite EC. split; [exact S1|exact B1].
  - injection H as <- <-. rewrite app_nil_r in EC. rewrite EC. split; [exact S1|exact B1].
Qed.

