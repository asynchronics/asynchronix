(* The in-flight message count of channel.rs: THREAD_MSG_COUNT contributions (+1 after a push, -1 after a
   pop) add up to the number of queued messages, up to the senders that have pushed and not yet counted and
   the receiver that has popped and not yet counted - in every reachable state of the channel model, for the
   programs of the current tree. *)
Require Import NX.Base.Prelude NX.Base.ListX NX.Model.Chan NX.Proofs.ChanInv NX.Proofs.ChanProofs.

Definition inc_pending (pc : spc) : bool :=
  match pc with
  | SCancel => true
  | SPost ops => existsb (fun o => match o with SCountInc => true | _ => false end) ops
  | _ => false
  end.
Definition dec_pending (pc : rpc) : bool :=
  match pc with RGot ops => existsb (fun o => match o with RCountDec => true | _ => false end) ops | _ => false end.
Definition ninc (l : list csender) : nat := list_sum (map (fun v => b2n (inc_pending (spc_ v))) l).
Arguments ninc : simpl never.

Definition CCnt (s : cstate) : Prop :=
  (ccount s + Z.of_nat (ninc (csnd s)) - Z.of_nat (b2n (dec_pending (rpc_ s))) = Z.of_nat (cavail s))%Z
  /\ cpushed s = cpopped s + cavail s.

Lemma ccnt_upd s s' x v v' :
  CCnt s -> nth_error (csnd s) x = Some v -> csnd s' = lupd (csnd s) x v' ->
  (ccount s' + Z.of_nat (b2n (inc_pending (spc_ v'))) - Z.of_nat (b2n (dec_pending (rpc_ s'))) - Z.of_nat (cavail s')
   = ccount s + Z.of_nat (b2n (inc_pending (spc_ v))) - Z.of_nat (b2n (dec_pending (rpc_ s))) - Z.of_nat (cavail s))%Z ->
  cpushed s' + (cpopped s + cavail s) = cpushed s + (cpopped s' + cavail s') -> CCnt s'.
Proof.
  intros [C1 C2] Hn E H1 H2. destruct (nth_error_nth_lt _ _ _ csdef Hn) as [Hv Hx]. unfold CCnt, ninc in *. rewrite E.
  pose proof (list_sum_map_lupd (fun v => b2n (inc_pending (spc_ v))) (csnd s) x v' csdef Hx) as L. rewrite Hv in L. lia.
Qed.

Ltac cnt_step Hn Epc := eapply ccnt_upd; [eassumption|exact Hn|reflexivity|rewrite ?Epc; cbn; lia|cbn; lia].

Lemma cnotify_one_cnt s pick s' : cnotify_one s pick = Some s' -> CCnt s ->
  CCnt s' /\ rpc_ s' = rpc_ s /\
  (forall x v, nth_error (csnd s) x = Some v -> exists v', nth_error (csnd s') x = Some v' /\ spc_ v' = spc_ v).
Proof.
  unfold cnotify_one. intros H C. destruct pick as [y|].
  - destruct (nth_error (csnd s) y) as [w|] eqn:Ey; [|discriminate].
    destruct (sin w); [|discriminate]. injection H as <-.
    refine (conj _ (conj eq_refl _)); [cnt_step Ey Ey|].
    intros x v Hn. cbn. destruct (Nat.eq_dec y x) as [<-|Hne].
    + rewrite nth_error_lupd_eq by (eapply nth_error_some_lt, Ey). rewrite Ey in Hn. injection Hn as <-. eexists; split; reflexivity.
    + rewrite nth_error_lupd_ne by exact Hne. eexists; split; [exact Hn|reflexivity].
  - destruct (existsb sin (csnd s)); [discriminate|]. injection H as <-. eauto.
Qed.

Lemma sender_step_cnt s x v pick sp s' :
  CInv s -> CCnt s -> nth_error (csnd s) x = Some v -> sender_step chan_fixed s x v pick sp = Some s' -> CCnt s'.
Proof.
  intros I C Hn Hs.
  pose proof (c_post s I x) as Hpost. rewrite (proj1 (S_nth_error _ _ _ Hn)) in Hpost.
  unfold sender_step in Hs.
  destruct (spc_ v) as [| | | | | | |ops] eqn:Epc.
  - discriminate.
  - injection Hs as <-. cnt_step Hn Epc.
  - unfold ctry_push in Hs. destruct (cocc s <? ccap s); injection Hs as <-; cnt_step Hn Epc.
  - injection Hs as <-. cnt_step Hn Epc.
  - unfold ctry_push in Hs. destruct (cocc s <? ccap s); injection Hs as <-; cnt_step Hn Epc.
  - destruct (sin v); [injection Hs as <-; cnt_step Hn Epc|].
    destruct (cnotify_one s pick) as [s1|] eqn:En; [|discriminate].
    destruct (cnotify_one_cnt _ _ _ En C) as (C1 & Er & Hsame).
    destruct (Hsame x v Hn) as (v1 & Hn1 & Epc1). rewrite Hn1 in Hs. injection Hs as <-.
    rewrite Epc in Epc1. cnt_step Hn1 Epc1.
  - destruct (swk v || sp); [|discriminate]. injection Hs as <-. cnt_step Hn Epc.
  - cbn in Hpost. destruct Hpost as [->|[->| ->]]; injection Hs as <-.
    + destruct (rreg s); cnt_step Hn Epc.
    + cnt_step Hn Epc.
    + cnt_step Hn Epc.
Qed.

Lemma recv_step_cnt s pick sp s' : CInv s -> CCnt s -> recv_step chan_fixed s pick sp = Some s' -> CCnt s'.
Proof.
  intros I C Hs. pose proof (c_got s I) as Hgot. unfold recv_step in Hs. unfold CCnt in *.
  destruct (rpc_ s) as [| | | |ops|] eqn:Epc.
  - destruct (cavail s) as [|a] eqn:Ea; injection Hs as <-; cbn in *; rewrite ?Ea; lia.
  - injection Hs as <-; cbn in *; lia.
  - destruct (cavail s) as [|a] eqn:Ea; injection Hs as <-; cbn in *; rewrite ?Ea; lia.
  - destruct (rwk s || sp); [|discriminate]. injection Hs as <-; cbn in *; lia.
  - (* only the notification needs a word: it changes no count *)
    cbn in Hgot. destruct Hgot as [->|[->|[->|[->| ->]]]]; try (injection Hs as <-; cbn in *; lia).
    destruct (cnotify_one s pick) as [s1|] eqn:En; [|discriminate].
    rewrite <- Epc in C. destruct (cnotify_one_cnt _ _ _ En C) as (C1 & Er & _).
    unfold CCnt in C1. rewrite Er, Epc in C1.
    injection Hs as <-. cbn in *. lia.
  - discriminate.
Qed.

Lemma c_step_cnt s l s' : CInv s -> CCnt s -> c_step chan_fixed s l = Some s' -> CCnt s'.
Proof.
  intros I C Hs. destruct l as [x pick sp|x|pick sp|]; cbn [c_step] in Hs.
  - destruct (nth_error (csnd s) x) as [v|] eqn:E; [|discriminate]. eapply sender_step_cnt; eauto.
  - destruct (nth_error (csnd s) x) as [v|] eqn:E; [|discriminate].
    destruct (spc_ v) eqn:Epc; try discriminate. injection Hs as <-. cnt_step E Epc.
  - eapply recv_step_cnt; eauto.
  - unfold CCnt in *. destruct (rpc_ s) eqn:Epc; try discriminate. injection Hs as <-. cbn in *. lia.
Qed.

Theorem chan_run_cnt c n ls : CCnt (c_run chan_fixed (c_init c n) ls).
Proof.
  apply (c_run_invariant chan_fixed (fun s => CInv s /\ CCnt s)).
  - intros s l s' [I C] H. split; [eapply c_step_inv|eapply c_step_cnt]; eauto.
  - split; [apply cinv_init|]. unfold CCnt, ninc. cbn. rewrite (list_sum_map_zero _ _ csdef); [split; reflexivity|].
    intros i. rewrite nth_repeat. reflexivity.
Qed.

(* when no sender is between its push and its count update, and the receiver is not between its pop and its
   count update, the sum of the thread counts contributed through this channel is exactly the number of
   queued messages *)
Theorem ccnt_count_is_queued s :
  CCnt s -> (forall x, inc_pending (spc_ (S_ s x)) = false) -> dec_pending (rpc_ s) = false ->
  ccount s = Z.of_nat (cavail s).
Proof.
  intros [C1 _] Hi Hd.
  unfold ninc in C1. rewrite (list_sum_map_zero _ _ csdef), Hd in C1; [cbn in C1; lia|].
  intros x. fold (S_ s x). rewrite Hi. reflexivity.
Qed.
