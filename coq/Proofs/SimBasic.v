(* Basic facts about Model/Sim.v: what a scheduling request does, the sticky
   terminated flag, the frame relation between states, the induction over the
   executor loop. *)
Require Import NX.Base.Prelude NX.Base.ListX NX.Model.PQ NX.Model.Sim.

Lemma key_le_fst (a b : key) : key_le a b -> (fst a <= fst b)%Z.
Proof. intros [L|<-]; [unfold key_lt in L|]; lia. Qed.

Definition pzero (p : option Z) : bool := match p with Some x => Z.leb x 0 | None => false end.

Lemma pzero_false p : pzero p = false -> match p with Some x => (x > 0)%Z | None => True end.
Proof. destruct p as [x|]; cbn; auto. intros H. apply Z.leb_gt in H. lia. Qed.

Lemma sched_request_cases s origin d mk keyed period chk s' code k :
  sched_request s origin d mk keyed period chk = (s', code, k) ->
  let t := dl_time d (now s) in
  code = (if chk && pzero period then 2%N else if Z.leb t (now s) then 1%N else 0%N) /\
  ((code <> 0%N /\ s' = s /\ k = None) \/
   (code = 0%N /\ (t > now s)%Z /\ k = (if keyed then Some (length (cancelled s)) else None) /\
    s' = set_next_aid
           (set_queue (if keyed then set_cancelled s (cancelled s ++ [false]) else s)
              (pq_insert (queue s) (t, origin) {| aid := next_aid s; aop := mk k; akey := k; aperiod := period |}))
           (next_aid s + 1)%N)).
Proof.
  unfold sched_request. fold (pzero period).
  destruct (chk && pzero period); [intros H; injection H as <- <- <-; split; [reflexivity|left; split; [discriminate|auto]]|].
  destruct (Z.leb_spec (dl_time d (now s)) (now s)) as [L|L];
    [intros H; injection H as <- <- <-; split; [reflexivity|left; split; [discriminate|auto]]|].
  destruct keyed; cbn; intros H; injection H as <- <- <-; (split; [|right]); auto; repeat split; lia.
Qed.

Lemma sched_request_code s origin d mk keyed period chk s' code k :
  sched_request s origin d mk keyed period chk = (s', code, k) ->
  code = (if chk && pzero period then 2%N
          else if Z.leb (dl_time d (now s)) (now s) then 1%N else 0%N) /\
  (code <> 0%N -> s' = s /\ k = None).
Proof.
  intros H. apply sched_request_cases in H. destruct H as (C & [(_ & R)|(E & _)]); (split; [exact C|]); [auto|congruence].
Qed.

Lemma sched_request_ok s origin d mk keyed period chk s' k :
  sched_request s origin d mk keyed period chk = (s', 0%N, k) ->
  let t := dl_time d (now s) in
  (t > now s)%Z /\
  items (queue s') = items (queue s) ++
     [{| ikey := (t, origin); iepoch := next_epoch (queue s);
         ival := {| aid := next_aid s; aop := mk k; akey := k; aperiod := period |} |}] /\
  now s' = now s /\ terminated s' = terminated s /\ boxes s' = boxes s /\ tasks s' = tasks s /\
  inflight s' = inflight s /\ err s' = err s /\ log s' = log s /\ sinks s' = sinks s /\
  clockpos s' = clockpos s /\
  (keyed = false -> k = None /\ cancelled s' = cancelled s) /\
  (keyed = true -> k = Some (length (cancelled s)) /\ cancelled s' = cancelled s ++ [false]).
Proof.
  intros H. apply sched_request_cases in H. destruct H as (_ & [(N & _)|(_ & T & -> & ->)]); [congruence|].
  destruct keyed; cbn; repeat split; auto; discriminate.
Qed.

Lemma sched_request_frame s origin d mk keyed period chk s' code k :
  sched_request s origin d mk keyed period chk = (s', code, k) ->
  now s' = now s /\ terminated s' = terminated s /\ clockpos s' = clockpos s /\
  dkeys s' = dkeys s /\ log s' = log s /\ err s' = err s /\ boxes s' = boxes s /\
  inflight s' = inflight s /\ tasks s' = tasks s /\ sinks s' = sinks s /\ qreply s' = qreply s.
Proof.
  intros H. apply sched_request_cases in H. destruct H as (_ & [(_ & -> & _)|(_ & _ & _ & ->)]);
    [|destruct keyed]; repeat split; reflexivity.
Qed.

Definition is_running (c : cmd) : bool :=
  match c with
  | CStep | CStepUntil _ | CProcEvent _ _ _ | CProcQuery _ _ _ | CProcSrc _ _ => true
  | _ => false
  end.

Lemma terminated_sticky b fuel s c ch :
  bugF1 b = false -> terminated s = true -> is_running c = true ->
  exec_cmd b fuel s c ch = (s, RTerminated, false).
Proof.
  intros HF HT HR. destruct c; try discriminate HR; cbn [exec_cmd]; unfold step_bounded;
    rewrite HT, HF; reflexivity.
Qed.

Definition is_fatal (r : res) : bool :=
  match r with
  | RDeadlock _ | RMessageLoss _ | RNoRecipient _ | RPanic _ _ | ROutOfSync _ => true
  | _ => false
  end.

(* the results Simulation::run can classify a stopped run as *)
Definition run_res (r : res) : bool :=
  match r with ROk | RDeadlock _ | RMessageLoss _ | RNoRecipient _ | RPanic _ _ => true | _ => false end.

Lemma classify_run_res b s : run_res (classify b s) = true.
Proof.
  unfold classify. destruct (err s) as [[m c|m]|]; try reflexivity.
  destruct (Z.eqb _ _); try reflexivity. destruct (observed b s); reflexivity.
Qed.

Lemma store_dkey_queue s slot k :
  queue (store_dkey s slot k) = queue s /\ now (store_dkey s slot k) = now s.
Proof. unfold store_dkey. destruct slot, k; auto. Qed.

Lemma cancel_key_spec s k :
  let s' := cancel_key s k in
  queue s' = queue s /\ now s' = now s /\ tasks s' = tasks s /\ boxes s' = boxes s /\ log s' = log s /\
  (forall k', k' <> k -> key_cancelled s' k' = key_cancelled s k') /\
  (forall i, k = Some i -> i < length (cancelled s) -> key_cancelled s' k = true).
Proof.
  unfold cancel_key. destruct k as [i|]; cbn.
  - repeat split; auto.
    + intros [j|] NE; unfold key_cancelled; cbn; auto; try (rewrite nth_error_lupd_ne by congruence); auto.
    + intros i0 E L. injection E as <-. rewrite nth_error_lupd_eq; auto.
  - repeat split; auto. intros i E; discriminate.
Qed.

Definition plain_entry (e : entry) : bool :=
  match e with ETime _ | EClock _ => false | _ => true end.

(* frame: fields a net step / a scheduling request never touches *)
Record frame_eq (s s' : state) : Prop := {
  fe_now : now s' = now s;
  fe_term : terminated s' = terminated s;
  fe_clock : clockpos s' = clockpos s;
  fe_dkeys : dkeys s' = dkeys s;
  fe_log : exists l, log s' = l ++ log s /\ forallb plain_entry l = true
}.

Lemma frame_eq_refl s : frame_eq s s.
Proof. split; auto. exists []; auto. Qed.

Lemma frame_eq_trans a b c : frame_eq a b -> frame_eq b c -> frame_eq a c.
Proof.
  intros [A1 A2 A3 A4 [l1 [A5 A6]]] [B1 B2 B3 B4 [l2 [B5 B6]]]. split; try congruence.
  exists (l2 ++ l1). rewrite B5, A5, app_assoc. split; auto.
  rewrite forallb_app, B6, A6. reflexivity.
Qed.

Lemma frame_single s s' e : now s' = now s -> terminated s' = terminated s ->
  clockpos s' = clockpos s -> dkeys s' = dkeys s -> log s' = e :: log s -> plain_entry e = true ->
  frame_eq s s'.
Proof. intros EN ET EC ED EL PE. split; auto. exists [e]. split; [exact EL|]. cbn. rewrite PE. reflexivity. Qed.

Lemma frame_nolog s s' : now s' = now s -> terminated s' = terminated s ->
  clockpos s' = clockpos s -> dkeys s' = dkeys s -> log s' = log s -> frame_eq s s'.
Proof. intros. split; auto. exists []. split; auto. Qed.

(* The one induction over the executor loop: a relation between states that holds of (s, s)
   and is closed under prefixing a step holds between the start and the end of every run,
   and the end is quiescent. *)
Lemma net_run_steps b (R : state -> state -> Prop) :
  (forall s, R s s) ->
  (forall s l s1 s', net_step b s l = Some s1 -> R s1 s' -> R s s') ->
  forall fuel ch s nd s' nd', net_run b fuel ch s nd = Some (s', nd') -> R s s' /\ net_enabled b s' = [].
Proof.
  intros Hrefl Hstep. induction fuel as [|f IH]; intros ch s nd s' nd' H; cbn [net_run] in H; [discriminate|].
  destruct (net_enabled b s) as [|l0 ls] eqn:EN.
  - injection H as <- <-. auto.
  - destruct (match ch with [] => (0, []) | c :: r => (c, r) end) as [c rest].
    destruct (net_step b s _) as [s1|] eqn:E; [|discriminate].
    destruct (IH _ _ _ _ _ H). eauto.
Qed.

Lemma net_run_invariant b (P : state -> Prop) :
  (forall s l s', P s -> net_step b s l = Some s' -> P s') ->
  forall fuel ch s nd s' nd', P s -> net_run b fuel ch s nd = Some (s', nd') -> P s'.
Proof.
  intros Hstep fuel ch s nd s' nd' HP H.
  apply (net_run_steps b (fun s s' => P s -> P s')) in H; [apply H, HP|auto|eauto].
Qed.
