(* Conservation of tasks in the pool model, for ANY barrier program: every task made runnable (spawned by
   the main thread or woken by a running task) is, at any time, either in the injector, in a local queue,
   in a fast slot, in a worker's hands, or has been taken and run - exactly once. *)
Require Import NX.Base.Prelude NX.Base.ListX NX.Model.Pool NX.Proofs.PoolInv NX.Proofs.PoolProofs.

Definition wload (w : pworker) : nat := wlq w + (if wslot w then 1 else 0) + whand w.
Fixpoint sumload (l : list pworker) : nat :=
  match l with [] => 0 | w :: r => wload w + sumload r end.

Definition tasks (s : pstate) : nat := pran s + pinj s + sumload (pws s).
Definition Cons (s : pstate) : Prop := psched s = tasks s.

Lemma sumload_sum l : sumload l = list_sum (map wload l).
Proof. induction l as [|w l IH]; [reflexivity|]. cbn [sumload map list_sum fold_right]. rewrite IH. reflexivity. Qed.

Lemma tasks_upd s s' j w w' :
  nth_error (pws s) j = Some w -> pws s' = lupd (pws s) j w' ->
  tasks s' + (pran s + pinj s + wload w) = tasks s + (pran s' + pinj s' + wload w').
Proof.
  intros Hn E. destruct (nth_error_nth_lt _ _ _ wdef Hn) as [Hw Hj]. unfold tasks. rewrite E, !sumload_sum.
  pose proof (list_sum_map_lupd wload (pws s) j w' wdef Hj) as L. rewrite Hw in L. lia.
Qed.

Lemma cons_upd s s' j w w' :
  Cons s -> nth_error (pws s) j = Some w -> pws s' = lupd (pws s) j w' ->
  psched s' + (pran s + pinj s + wload w) = psched s + (pran s' + pinj s' + wload w') -> Cons s'.
Proof. unfold Cons. intros C Hn E H. pose proof (tasks_upd s s' j w w' Hn E). lia. Qed.

(* the step updates the worker that Hn looks up, and the balance is plain arithmetic *)
Ltac cons_step Hn := eapply cons_upd; [eassumption|exact Hn|reflexivity|unfold wload; cbn; lia].

Lemma exec_bop_cons s j w o cont s' :
  Cons s -> nth_error (pws s) j = Some w -> exec_bop s j w o cont = Some s' -> Cons s'.
Proof.
  intros C Hn H. destruct o; cbn in H.
  - injection H as <-. cons_step Hn.
  - destruct (wtok w); [|discriminate]. injection H as <-. cons_step Hn.
  - injection H as <-.
    eapply (cons_upd (set_ws s (map (fun x => set_act x false) (pws s))));
      [|apply map_nth_error, Hn|reflexivity|unfold wload; cbn; lia].
    unfold Cons, tasks in *. rewrite sumload_sum in *. cbn [psched pran pinj pws set_ws]. rewrite map_map. exact C.
  - injection H as <-. cons_step Hn.
  - injection H as <-. cons_step Hn.
Qed.

Lemma nth_error_set_w_ne s v x j : v <> j -> nth_error (pws (set_w s v x)) j = nth_error (pws s) j.
Proof. intros H. apply nth_error_lupd_ne, H. Qed.

Lemma worker_step_cons B s j w c s' :
  Cons s -> nth_error (pws s) j = Some w -> worker_step B s j w c = Some s' -> Cons s'.
Proof.
  intros C Hn H. unfold worker_step in H.
  destruct (wpc w) as [[|o r]| | |[|o r]| | | | | | |v|v].
  - injection H as <-. cons_step Hn.
  - eapply exec_bop_cons; eauto.
  - destruct (negb (wact w)); [injection H as <-; exact C|].
    destruct (only_bit (acts s) j); injection H as <-; cons_step Hn.
  - destruct (Nat.eqb (pinj s) 0); injection H as <-; cons_step Hn.
  - injection H as <-. cons_step Hn.
  - eapply exec_bop_cons; eauto.
  - destruct c; try discriminate.
    + destruct ((1 <=? k) && (k <=? pinj s)) eqn:Ek; [|discriminate]. injection H as <-.
      apply andb_true_iff in Ek. destruct Ek as [E1 E2]. apply Nat.leb_le in E1, E2. cons_step Hn.
    + (* a steal: k tasks leave v's queue; one lands in the slot of j, the rest in its queue *)
      destruct (Nat.eqb_spec v j) as [|Hvj]; [discriminate|].
      destruct (nth_error (pws s) v) as [x|] eqn:Ev; [|discriminate].
      destruct (wslot w) eqn:Esl; [injection H as <-; exact C|].
      destruct ((1 <=? k) && (k <=? wlq x)) eqn:Ek; [|discriminate]. injection H as <-.
      apply andb_true_iff in Ek. destruct Ek as [E1 E2]. apply Nat.leb_le in E1, E2.
      set (s1 := set_w s v (set_lq x (wlq x - k))).
      rewrite <- (nth_error_set_w_ne s v (set_lq x (wlq x - k)) j Hvj) in Hn. fold s1 in Hn.
      pose proof (tasks_upd s s1 v x _ Ev eq_refl) as L1.
      pose proof (tasks_upd s1 (set_w s1 j (set_pc (set_slot (set_lq w (wlq w + (k - 1))) true) WRun)) j w _ Hn eq_refl) as L2.
      unfold Cons, wload in *. cbn in L1, L2 |- *. rewrite Esl in L2. lia.
    + injection H as <-. cons_step Hn.
  - injection H as <-. cons_step Hn.
  - destruct (wslot w) eqn:Esl; [|destruct (wlq w) as [|q] eqn:Elq]; injection H as <-.
    + eapply cons_upd; [eassumption|exact Hn|reflexivity|unfold wload; cbn; rewrite Esl; lia].
    + cons_step Hn.
    + eapply cons_upd; [eassumption|exact Hn|reflexivity|unfold wload; cbn; rewrite Elq; lia].
  - destruct c; try discriminate.
    + injection H as <-. cons_step Hn.
    + destruct (wslot w) eqn:Esl; injection H as <-; [cons_step Hn|].
      eapply cons_upd; [eassumption|exact Hn|reflexivity|unfold wload; cbn; rewrite Esl; lia].
    + injection H as <-. cons_step Hn.
  - destruct c; try discriminate.
    + destruct (whand w) as [|h] eqn:Eh; [discriminate|]. injection H as <-.
      eapply cons_upd; [eassumption|exact Hn|reflexivity|unfold wload; cbn; rewrite Eh; lia].
    + destruct (Nat.leb_spec k (wlq w)); [|discriminate]. injection H as <-. cons_step Hn.
    + destruct ((1 <=? k) && (k <=? whand w)) eqn:Ek; [|discriminate]. injection H as <-.
      apply andb_true_iff in Ek. destruct Ek as [E1 E2]. apply Nat.leb_le in E1, E2. cons_step Hn.
    + destruct (whand w); [|discriminate]. injection H as <-. cons_step Hn.
  - destruct c; try discriminate.
    + destruct (v <? length (pws s)); [|discriminate]. injection H as <-. cons_step Hn.
    + injection H as <-. cons_step Hn.
  - destruct (nth_error (pws s) v) as [x|] eqn:Ev; [|discriminate].
    destruct (wact x); [injection H as <-; cons_step Hn|].
    destruct (Nat.eqb_spec v j) as [->|Hvj]; injection H as <-; [cons_step Hn|].
    rewrite <- (nth_error_set_w_ne s v (set_act x true) j Hvj) in Hn.
    eapply cons_upd; [|exact Hn|reflexivity|unfold wload; cbn; lia]. cons_step Ev.
  - destruct (nth_error (pws s) v) as [x|] eqn:Ev; [|discriminate].
    destruct (Nat.eqb_spec v j) as [->|Hvj]; injection H as <-; [cons_step Hn|].
    rewrite <- (nth_error_set_w_ne s v (set_tok x true) j Hvj) in Hn.
    eapply cons_upd; [|exact Hn|reflexivity|unfold wload; cbn; lia]. cons_step Ev.
Qed.

Lemma main_step_cons s s' : Cons s -> main_step s = Some s' -> Cons s'.
Proof.
  intros C H. unfold main_step in H. destruct (pmain s) as [|a|v| | |].
  - discriminate.
  - destruct (first_idle a) as [f|].
    + destruct (nth_error (pws s) f) as [x|] eqn:Ef; [|discriminate].
      destruct (wact x); injection H as <-; [exact C|cons_step Ef].
    + destruct (bools_eqb (acts s) a); injection H as <-; exact C.
  - destruct (nth_error (pws s) v) as [x|] eqn:Ev; [|discriminate]. injection H as <-. cons_step Ev.
  - destruct (all_inactive (acts s)); injection H as <-; exact C.
  - destruct (pmtok s); [|discriminate]. injection H as <-. exact C.
  - injection H as <-. exact C.
Qed.

Lemma p_step_cons B s l s' : Cons s -> p_step B s l = Some s' -> Cons s'.
Proof.
  intros C H. destruct l as [j c| | |]; cbn in H.
  - destruct (nth_error (pws s) j) as [w|] eqn:E; [|discriminate]. eapply worker_step_cons; eauto.
  - eapply main_step_cons; eauto.
  - destruct (pmain s); try discriminate. injection H as <-. unfold Cons, tasks in *; cbn. lia.
  - destruct (pmain s); try discriminate. injection H as <-. exact C.
Qed.

Theorem pool_run_cons B n ls : Cons (p_run B (p_init n) ls).
Proof.
  apply p_run_invariant; [apply p_step_cons|].
  unfold Cons, tasks. cbn. rewrite sumload_sum, (list_sum_map_zero wload _ wdef); [reflexivity|].
  intros i. rewrite nth_repeat. reflexivity.
Qed.

(* when Executor::run reads the idle pool, every task ever spawned or woken has been run *)
Theorem inv_all_tasks_run s : Inv s -> Cons s -> pmain s = MRead -> pran s = psched s.
Proof.
  intros I C Em. destruct (inv_read_exact s I Em) as (_ & Hi & Hq).
  unfold Cons, tasks in C. rewrite Hi, sumload_sum, (list_sum_map_zero wload _ wdef) in C; [lia|].
  intros j. destruct (Hq j) as (A & B & D & _). fold (W s j). unfold wload. rewrite A, B, D. reflexivity.
Qed.
