(* How the invariant of the channel protocol (ChanInv.v) follows the change made by one party: a sender
   (sender_upd), the receiver (recv_upd), Event::notify_one (cnotify_one_inv). *)
Require Import NX.Base.Prelude NX.Base.ListX NX.Model.Chan NX.Proofs.ChanInv.

Ltac ssplit y x := destruct (Nat.eqb_spec y x) as [->|?].

Lemma b2n_le1 b : b2n b <= 1.
Proof. destruct b; cbn; lia. Qed.

Lemma notes_upd s s' x v' : csnd s' = lupd (csnd s) x v' -> x < length (csnd s) -> rpend s' = rpend s ->
  notes s' + b2n (sh (S_ s x)) = notes s + b2n (sh v').
Proof.
  intros E H R. unfold notes. rewrite E, R. pose proof (nsh_lupd (csnd s) x v' H) as L. fold (S_ s x) in L. lia.
Qed.

(* every sender asleep in the wait set is covered with one notification to spare *)
Definition spare (s : cstate) : Prop :=
  forall z, spc_ (S_ s z) = SSleep -> sin (S_ s z) = true -> S (ccap s - cocc s) <= notes s.

Lemma cinv_pushed s : CInv s -> CInv (add_pushed s).
Proof. intros []. constructor; assumption. Qed.

(* Sender x moves; the queue can only have been pushed to.  The setters rebuild the record field by field, so
   `cset_s s x v'` is convertible to `cset_s (cset_q s (cocc s) (cavail s)) x v'`: a step that leaves the queue
   alone is the instance o := cocc s, a := cavail s (likewise for recv_upd). *)
Lemma sender_upd s o a x v' :
  CInv s -> x < length (csnd s) ->
  ((o = cocc s /\ a = cavail s) \/
   (cocc s < ccap s /\ o = S (cocc s) /\ a = S (cavail s) /\ will_notify_recv (spc_ v') = true)) ->
  sender_ok v' ->
  (b2n (sh (S_ s x)) <= b2n (sh v') + (o - cocc s) \/ o = ccap s \/ spare s) ->
  (spc_ v' = SSleep -> sin v' = true -> o = ccap s) ->
  (will_notify_recv (spc_ (S_ s x)) = true -> will_notify_recv (spc_ v') = true \/ rreg s = false) ->
  CInv (cset_s (cset_q s o a) x v').
Proof.
  intros I Hx Hq Hok Hnote Hnew Hwn. set (s' := cset_s (cset_q s o a) x v').
  assert (ES : forall y, S_ s' y = if Nat.eqb y x then v' else S_ s y) by (intros y; apply (S_upd s s' x v' y eq_refl Hx)).
  assert (HC : forall y, sender_clauses (S_ s' y)).
  { intros y. rewrite ES. ssplit y x; [apply sender_ok_clauses, Hok|apply cinv_clauses, I]. }
  pose proof (notes_upd s s' x v' eq_refl Hx eq_refl) as HN.
  pose proof (c_cap s I) as Hcap. pose proof (c_av s I) as Hav.
  constructor; try (intros y; apply (HC y)); cbn [s' cset_s cset_snd cset_q ccap cocc cavail rpc_ rreg rwk rpend].
  - destruct Hq as [[-> _]|(A & -> & _)]; lia.
  - destruct Hq as [[-> ->]|(A & -> & -> & _)]; lia.
  - intros H. pose proof (c_hold s I H). destruct Hq as [[-> ->]|(A & -> & -> & _)]; lia.
  - exact (c_got s I).
  - intros y. fold s'. rewrite ES. ssplit y x; intros A B; [pose proof (Hnew A B); lia|].
    pose proof (c_main s I y A B) as M. pose proof (b2n_le1 (sh (S_ s x))) as L.
    destruct Hnote as [Hn|[Z|Z]]; [|lia|pose proof (Z y A B)];
      destruct Hq as [[Eo _]|(_ & Eo & _)]; rewrite Eo in *; lia.
  - exact (c_rp s I).
  - intros A B. fold s'. destruct Hq as [[_ ->]|(_ & _ & _ & Wn)].
    + destruct (c_r1 s I A B) as [Z|[y Hy]]; [left; exact Z|].
      ssplit y x.
      * destruct (Hwn Hy) as [W|W]; [right; exists x; rewrite ES, Nat.eqb_refl; exact W|congruence].
      * right. exists y. rewrite ES. destruct (Nat.eqb_spec y x); [contradiction|exact Hy].
    + right. exists x. rewrite ES, Nat.eqb_refl. exact Wn.
  - exact (c_r2 s I).
  - exact (c_r4 s I).
Qed.

Lemma sender_keeps s x v pc i w :
  CInv s -> nth_error (csnd s) x = Some v -> sender_ok (cmk_s pc i w (sh v)) -> pc <> SSleep ->
  (will_notify_recv (spc_ v) = true -> will_notify_recv pc = true \/ rreg s = false) ->
  CInv (cset_s s x (cmk_s pc i w (sh v))).
Proof.
  intros I Hn Hok Hpc Hwn. destruct (S_nth_error _ _ _ Hn) as [HS Hx].
  apply (sender_upd s (cocc s) (cavail s) x _ I Hx); [left; split; reflexivity|exact Hok| | |rewrite HS; exact Hwn].
  - left. rewrite HS. apply Nat.le_add_r.
  - intros F. contradiction.
Qed.

(* a notification given up is made good by the slot taken *)
Lemma sender_push s s1 x v' :
  CInv s -> x < length (csnd s) -> ctry_push s = Some s1 -> sender_ok v' -> will_notify_recv (spc_ v') = true ->
  CInv (cset_s s1 x v').
Proof.
  intros I Hx Hp Hok Wn. unfold ctry_push in Hp.
  destruct (Nat.ltb_spec (cocc s) (ccap s)) as [Free|]; [injection Hp as <-|discriminate].
  apply (cinv_pushed (cset_s (cset_q s _ _) x v')), (sender_upd s _ _ x _ I Hx); [right; auto|exact Hok| | |left; exact Wn].
  - left. pose proof (b2n_le1 (sh (S_ s x))). lia.
  - intros F. rewrite F in Wn. discriminate Wn.
Qed.

Lemma sender_full s x v v' :
  CInv s -> nth_error (csnd s) x = Some v -> ctry_push s = None -> sender_ok v' -> will_notify_recv (spc_ v) = false ->
  CInv (cset_s s x v').
Proof.
  intros I Hn Hp Hok Wn. destruct (S_nth_error _ _ _ Hn) as [HS Hx]. pose proof (c_cap s I) as Hcap.
  unfold ctry_push in Hp. destruct (Nat.ltb_spec (cocc s) (ccap s)) as [|Full]; [discriminate|].
  apply (sender_upd s (cocc s) (cavail s) x _ I Hx); [left; split; reflexivity|exact Hok| | | ].
  - right. left. lia.
  - intros _ _. lia.
  - rewrite HS, Wn. discriminate.
Qed.

Lemma cinv_count s c : CInv s -> CInv (cset_count s c).
Proof. intros []. constructor; assumption. Qed.

Lemma cinv_popped s : CInv s -> CInv (add_popped s).
Proof. intros []. constructor; assumption. Qed.

Lemma recv_upd s o a pc rg wk pd :
  CInv s -> o <= ccap s -> a <= o -> (holds_msg pc = true -> S a <= o) -> got_ok pc ->
  (forall z, spc_ (S_ s z) = SSleep -> sin (S_ s z) = true -> ccap s - o <= b2n pd + nsh (csnd s)) ->
  (pd = true <-> pc = RGot [RNotifyOne]) ->
  (pc = RSleep -> rg = true -> a = 0 \/ exists x, will_notify_recv (spc_ (S_ s x)) = true) ->
  (pc = RSleep -> rg = false -> wk = true) -> (pc = RCheck2 -> rg = false -> wk = true) ->
  CInv (cset_r (cset_q s o a) pc rg wk pd).
Proof. intros []. constructor; assumption. Qed.

(* what the invariant asks of the receiver arriving at pc with the flags rg, wk; `a` messages are queued,
   `held` says whether the pc it leaves held a message *)
Definition recv_ok (pc : rpc) (rg wk held : bool) (a : nat) : Prop :=
  match pc with
  | RGot ops => got_ok pc /\ ops <> [RNotifyOne] /\ (holds_msg pc = true -> held = true)
  | RSleep => if rg then a = 0 else wk = true
  | RCheck2 => rg = false -> wk = true
  | _ => True
  end.

Lemma recv_pc_only s pc rg wk :
  CInv s -> rpend s = false -> recv_ok pc rg wk (holds_msg (rpc_ s)) (cavail s) -> CInv (cset_r s pc rg wk (rpend s)).
Proof.
  intros I Rp Hok.
  apply (recv_upd s (cocc s) (cavail s) pc rg wk _ I); [exact (c_cap s I)|exact (c_av s I)| | |exact (c_main s I)| | | | ].
  - intros H. apply (c_hold s I). destruct pc; try discriminate H. apply Hok, H.
  - destruct pc; try exact Logic.I. apply Hok.
  - rewrite Rp. split; [discriminate|]. intros ->. destruct Hok as (_ & N & _). contradiction N. reflexivity.
  - intros -> ->. left. exact Hok.
  - intros -> ->. exact Hok.
  - intros ->. exact Hok.
Qed.

Lemma recv_pop s a rg :
  CInv s -> rpend s = false -> cavail s = S a ->
  CInv (add_popped (cset_r (cset_q s (cocc s) a) (RGot (cp_recv chan_fixed)) rg (rwk s) (rpend s))).
Proof.
  intros I Rp Ea. pose proof (c_av s I) as Hav. rewrite Ea in Hav.
  apply cinv_popped, (recv_upd s _ _ _ _ _ _ I); [exact (c_cap s I)| | |left; reflexivity|exact (c_main s I)| | | | ].
  - apply Nat.lt_le_incl, Hav.
  - intros _. exact Hav.
  - rewrite Rp. split; discriminate.
  - discriminate.
  - discriminate.
  - discriminate.
Qed.

(* the receiver has called notify_one: what it owed is now with the sender picked, unless nobody waits *)
Lemma recv_notified s : CInv s -> rpc_ s = RGot [RNotifyOne] -> spare s -> CInv (cset_r s (RGot []) (rreg s) (rwk s) false).
Proof.
  intros I Epc H. pose proof (proj2 (c_rp s I) Epc) as Rp.
  apply (recv_upd s (cocc s) (cavail s) _ _ _ _ I); [exact (c_cap s I)|exact (c_av s I)| | | | | | | ].
  - discriminate.
  - do 4 right. reflexivity.
  - intros z A B. pose proof (H z A B) as M. unfold notes in M. rewrite Rp in M. cbn in M |- *. lia.
  - split; discriminate.
  - discriminate.
  - discriminate.
  - discriminate.
Qed.

(* receiver_signal.notify() with a waker registered: the waker is taken and called *)
Lemma recv_woken s : CInv s -> CInv (cset_r s (rpc_ s) false true (rpend s)).
Proof.
  intros I.
  apply (recv_upd s (cocc s) (cavail s) _ _ _ _ I);
    [exact (c_cap s I)|exact (c_av s I)|exact (c_hold s I)|exact (c_got s I)|exact (c_main s I)|exact (c_rp s I)| | | ].
  - intros _ F. discriminate F.
  - reflexivity.
  - reflexivity.
Qed.

(* Event::notify_one: the sender picked is woken and holds a notification on top of those counted before (the
   caller gives his up in the same step); if nobody waits, nobody is to be covered *)
Lemma cnotify_one_inv s pick s1 : CInv s -> cnotify_one s pick = Some s1 -> CInv s1 /\ spare s1 /\ rpc_ s1 = rpc_ s.
Proof.
  intros I H. destruct pick as [y|]; cbn [cnotify_one] in H.
  - destruct (nth_error (csnd s) y) as [u|] eqn:Ey; [|discriminate].
    destruct (S_nth_error _ _ _ Ey) as [HSy Hy]. destruct (sin u) eqn:Eu; [|discriminate]. injection H as <-.
    rewrite <- HSy in Eu |- *. destruct (sender_ok_in _ (cinv_sender s y I) Eu) as [Shy Hok].
    set (s1 := cset_s s y _). refine (conj _ (conj _ eq_refl)).
    + apply (sender_upd s (cocc s) (cavail s) y _ I Hy); [left; split; reflexivity|exact Hok| | | ].
      * left. rewrite Shy. apply Nat.le_0_l.
      * intros _ F. discriminate F.
      * intros W. left. exact W.
    + intros z A B. rewrite (S_upd s s1 y _ z eq_refl Hy) in A, B. destruct (Nat.eqb_spec z y); [discriminate B|].
      pose proof (c_main s I z A B) as M.
      pose proof (notes_upd s s1 y _ eq_refl Hy eq_refl) as N. rewrite Shy in N. cbn in N |- *. lia.
  - destruct (existsb sin (csnd s)) eqn:Eex; [discriminate|]. injection H as <-.
    refine (conj I (conj _ eq_refl)). intros z A B. unfold S_ in B. rewrite (existsb_sin_false _ Eex) in B. discriminate B.
Qed.
