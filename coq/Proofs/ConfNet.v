(* The net model of Model/Sim.v refines the message pool of Model/Conf.v.  For a bench of the plain fragment
   (scripts of sends, queries and scheduling requests, every model added), every step of the net model either
   leaves the pool unchanged up to order (a stutter) or picks one message c of the pool and replaces it by
   bench_react b c, logging the invocation or performing the sink write.  Hence every run, under every choice
   list, is a schedule of the pool, and the confluence theorems of ConfProofs.v apply to the net model. *)
Require Import NX.Base.Prelude NX.Base.ListX NX.Model.Sim NX.Model.Conf.
Require Import NX.Proofs.SimBasic NX.Proofs.NetSteps NX.Proofs.ConfProofs.

Lemma box_msgs_app l1 : forall m0 l2,
  box_msgs m0 (l1 ++ l2) = box_msgs m0 l1 ++ box_msgs (m0 + length l1) l2.
Proof.
  induction l1 as [|q r IH]; intros m0 l2; cbn [app box_msgs length]; [rewrite Nat.add_0_r; reflexivity|].
  rewrite IH, <- app_assoc, Nat.add_succ_r. reflexivity.
Qed.

Lemma box_msgs_lupd bs : forall m0 m q, nth_error bs m = Some q ->
  exists rest, Permutation (box_msgs m0 bs) (map (cm_of_msg (m0 + m)) q ++ rest) /\
               forall q', Permutation (box_msgs m0 (lupd bs m q')) (map (cm_of_msg (m0 + m)) q' ++ rest).
Proof.
  intros m0 m q H. destruct (nth_error_split_lupd _ _ _ H) as (pre & post & -> & <- & U).
  exists (box_msgs m0 pre ++ box_msgs (S (m0 + length pre)) post).
  split; [|intros q'; rewrite U]; rewrite box_msgs_app; cbn [box_msgs]; apply Permutation_app_swap_app.
Qed.

Lemma plain_is_ok o : op_plain o = true -> cop_ok o = true.
Proof. destruct o; cbn; congruence. Qed.

Lemma forallb_plain_ok l : forallb op_plain l = true -> forallb cop_ok l = true.
Proof. rewrite !forallb_forall. intros H o Ho. exact (plain_is_ok o (H o Ho)). Qed.

Lemma bench_plain_scripts b m sp : bench_plain b = true -> nth_error (bmodels b) m = Some sp ->
  mplace sp = Added /\ forallb op_plain (minit sp) = true /\ forall g, forallb op_plain (msg_script sp g) = true.
Proof.
  unfold bench_plain. intros H E. rewrite forallb_forall in H.
  specialize (H sp (nth_error_In _ _ E)). unfold model_plain in H.
  apply andb_prop in H. destruct H as [H H4]. apply andb_prop in H. destruct H as [H H3].
  apply andb_prop in H. destruct H as [H1 H2].
  split; [destruct (mplace sp); try discriminate; reflexivity|]. split; [exact H2|].
  intros g. unfold msg_script. destruct (mkd g) as [key|r slot rep radd].
  - exact (forallb_nth (forallb op_plain) (mhandlers sp) [] (minp g) H3 eq_refl).
  - exact (forallb_nth (fun r => forallb op_plain (fst r)) (mrepliers sp) ([], 0%Z) rep H4 eq_refl).
Qed.

Lemma query_deliveries_cm qs v : forall t slot t' slot',
  map cm_of_delivery (query_deliveries t slot qs v) = map cm_of_delivery (query_deliveries t' slot' qs v).
Proof.
  induction qs as [|q r IH]; intros t slot t' slot'; cbn [query_deliveries]; [reflexivity|].
  destruct (keep_ok (qkeep q) v); [|apply IH].
  cbn [map]. f_equal. apply IH.
Qed.

Lemma op_deliveries_cm b t om v o : map cm_of_delivery (op_deliveries b t om v o) = op_msgs b om v o.
Proof.
  unfold op_deliveries, op_msgs. destruct o; destruct om as [mm|]; try reflexivity;
    destruct (nth_error (bmodels b) mm); try reflexivity. apply query_deliveries_cm.
Qed.

Lemma msg_react b m sp g : nth_error (bmodels b) m = Some sp ->
  bench_react b (cm_of_msg m g) = script_msgs b (Some m) (mval g) (msg_script sp g).
Proof. intros E. unfold cm_of_msg, msg_script. destruct (mkd g); cbn [bench_react]; rewrite E; reflexivity. Qed.

Lemma msg_entry_cm m g t : cm_of_entry (msg_entry m g t) = [cm_of_msg m g].
Proof. unfold msg_entry, cm_of_msg. destruct (mkd g); reflexivity. Qed.

Lemma msg_not_sink m g : is_sink_msg (cm_of_msg m g) = false /\ forall sk, sink_apply sk (cm_of_msg m g) = sk.
Proof. unfold cm_of_msg. destruct (mkd g); auto. Qed.

Definition NInv (s : state) : Prop :=
  (forall t x f, nth_error (tasks s) t = Some x -> tfr x = Some f -> forallb cop_ok (frest f) = true) /\
  (forall key, key_cancelled s key = false).

Lemma key_cancelled_ext s s' : cancelled s' = cancelled s -> forall k, key_cancelled s' k = key_cancelled s k.
Proof. intros E k. unfold key_cancelled. rewrite E. reflexivity. Qed.

Lemma NInv_upd_uncancelled s s' t x' :
  NInv s -> tasks s' = lupd (tasks s) t x' -> (forall k, key_cancelled s' k = false) ->
  (forall f, tfr x' = Some f -> forallb cop_ok (frest f) = true) -> NInv s'.
Proof.
  intros [I1 I2] ET EC HF. split; [|exact EC].
  intros t0 x0 f0 E0 F0. rewrite ET in E0. apply nth_error_lupd_inv in E0.
  destruct E0 as [[_ ->]|[_ E0]]; eauto.
Qed.

Lemma NInv_upd s s' t x' :
  NInv s -> tasks s' = lupd (tasks s) t x' -> cancelled s' = cancelled s ->
  (forall f, tfr x' = Some f -> forallb cop_ok (frest f) = true) -> NInv s'.
Proof.
  intros I ET EC HF. eapply NInv_upd_uncancelled; [exact I | exact ET | | exact HF].
  intros k. rewrite (key_cancelled_ext _ _ EC). destruct I as [_ I2]. apply I2.
Qed.

Lemma key_cancelled_grow s s' :
  (forall k, key_cancelled s k = false) ->
  cancelled s' = cancelled s \/ cancelled s' = cancelled s ++ [false] ->
  forall k, key_cancelled s' k = false.
Proof.
  intros H [E|E] k; [rewrite (key_cancelled_ext _ _ E); apply H|].
  destruct k as [i|]; [|reflexivity]. unfold key_cancelled. rewrite E.
  destruct (Nat.lt_ge_cases i (length (cancelled s))) as [L|L].
  - rewrite nth_error_app1 by exact L. exact (H (Some i)).
  - rewrite nth_error_app2 by exact L. destruct (i - length (cancelled s)) as [|[|j]]; reflexivity.
Qed.

Inductive sim_res (b : bench) (s s' : state) : Prop :=
| sim_stutter :
    Permutation (pool_of b s') (pool_of b s) -> invs (log s') = invs (log s) -> sinks s' = sinks s ->
    sim_res b s s'
| sim_pick : forall c rest,
    Permutation (pool_of b s) ([c] ++ rest) -> Permutation (pool_of b s') (bench_react b c ++ rest) ->
    invs (log s') = (if is_sink_msg c then [] else [c]) ++ invs (log s) ->
    sinks s' = sink_apply (sinks s) c ->
    sim_res b s s'.

Definition changes (b : bench) (s s' : state) (L L' : list cmsg) : Prop :=
  exists rest, Permutation (pool_of b s) (L ++ rest) /\ Permutation (pool_of b s') (L' ++ rest).

Lemma pool_tasks b s s' t x x' :
  nth_error (tasks s) t = Some x -> tasks s' = lupd (tasks s) t x' -> boxes s' = boxes s ->
  changes b s s' (task_msgs b x) (task_msgs b x').
Proof.
  intros E ET EB. destruct (flat_map_lupd (task_msgs b) _ _ _ E) as [rt [H1 H2]].
  exists (box_msgs 0 (boxes s) ++ rt). unfold pool_of. rewrite ET, EB, H1, (H2 x').
  split; apply Permutation_app_swap_app.
Qed.

Lemma pool_tasks_box b s s' t x x' m q q' :
  nth_error (tasks s) t = Some x -> tasks s' = lupd (tasks s) t x' ->
  nth_error (boxes s) m = Some q -> boxes s' = lupd (boxes s) m q' ->
  changes b s s' (map (cm_of_msg m) q ++ task_msgs b x) (map (cm_of_msg m) q' ++ task_msgs b x').
Proof.
  intros E ET EQ EB. destruct (flat_map_lupd (task_msgs b) _ _ _ E) as [rt [H1 H2]].
  destruct (box_msgs_lupd _ 0 _ _ EQ) as [rb [H3 H4]]. cbn [Nat.add] in *.
  exists (rb ++ rt). unfold pool_of. rewrite ET, EB, H1, (H2 x'), H3, (H4 q'), <- !app_assoc.
  split; apply Permutation_app_head, Permutation_app_swap_app.
Qed.

(* a step with `changes b s s' L L'` is a stutter when L' is L up to order, the pick of c when c is in L and L' has
   what c's handler sends in its place *)
Lemma changes_same b s s' L L' :
  changes b s s' L L' -> Permutation L' L -> Permutation (pool_of b s') (pool_of b s).
Proof. intros [rest [H1 H2]] P. rewrite H1, H2. apply Permutation_app_tail, P. Qed.

Lemma pick_local b s s' L L' c r0 :
  changes b s s' L L' -> Permutation L (c :: r0) -> Permutation L' (bench_react b c ++ r0) ->
  invs (log s') = (if is_sink_msg c then [] else [c]) ++ invs (log s) -> sinks s' = sink_apply (sinks s) c ->
  sim_res b s s'.
Proof.
  intros [rest [H1 H2]] P P'. apply sim_pick with (rest := r0 ++ rest).
  - rewrite H1, P. reflexivity.
  - rewrite H2, P', app_assoc. reflexivity.
Qed.

Lemma task_stutter b s s' t x x' :
  NInv s -> nth_error (tasks s) t = Some x -> tasks s' = lupd (tasks s) t x' -> boxes s' = boxes s ->
  (forall k, key_cancelled s' k = false) -> (forall f, tfr x' = Some f -> forallb cop_ok (frest f) = true) ->
  task_msgs b x' = task_msgs b x -> NInv s' /\ Permutation (pool_of b s') (pool_of b s).
Proof.
  intros I EX ET EB EC HF TM. split; [exact (NInv_upd_uncancelled s s' t x' I ET EC HF)|].
  apply (changes_same b s s' _ _ (pool_tasks b s s' t x x' EX ET EB)). rewrite TM. reflexivity.
Qed.

(* a reply only fills a slot of the requester's frame *)
Lemma deliver_reply_stutter b s r : NInv s ->
  NInv (deliver_reply s r) /\ Permutation (pool_of b (deliver_reply s r)) (pool_of b s) /\
  log (deliver_reply s r) = log s /\ sinks (deliver_reply s r) = sinks s.
Proof.
  intros I. destruct (deliver_reply_cases s r) as [->|[[v ->]|(rt & sl & v & y & f & _ & E & F & ->)]]; auto.
  split; [|split; [|auto]].
  - eapply NInv_upd; [exact I | reflexivity | reflexivity |].
    intros f0 E0. injection E0 as <-. exact (proj1 I _ _ _ E F).
  - eapply changes_same; [eapply pool_tasks; [exact E|reflexivity|reflexivity]|].
    unfold task_msgs. cbn. rewrite F. reflexivity.
Qed.

Lemma cm_sink d sk v : dtgt d = DSink sk v -> cm_of_delivery d = CMSink sk v.
Proof. unfold cm_of_delivery. intros ->. reflexivity. Qed.
Lemma cm_model d m g : dtgt d = DModel m g -> cm_of_delivery d = cm_of_msg m g.
Proof. unfold cm_of_delivery. intros ->. reflexivity. Qed.

Lemma task_msgs_idle b x m :
  tk x = TKModel m -> tfr x = None -> task_msgs b x = if tinit x then [CMInit m] else [].
Proof. intros K F. unfold task_msgs. rewrite K, F. apply app_nil_r. Qed.

Lemma task_msgs_start b x m script v r : tk x = TKModel m -> tinit x = false ->
  task_msgs b (tset_tfr x (Some (empty_frame script v r))) = script_msgs b (Some m) v script.
Proof. intros K I. unfold task_msgs, frame_msgs, task_model. cbn. rewrite K, I. reflexivity. Qed.

Lemma step_start_sim b s t s' :
  bench_plain b = true -> NInv s -> step_start b s t = Some s' -> NInv s' /\ sim_res b s s'.
Proof.
  intros HP I H. apply step_start_inv in H. destruct H as (x & m & sp & EX & TK & TF & _ & ES & H).
  destruct (bench_plain_scripts b m sp HP ES) as (_ & PI & PS).
  pose proof (task_msgs_idle b x m TK TF) as TM.
  destruct H as [[TI ->]|(TI & g & restq & fr & EB & H)]; rewrite TI in TM.
  - split.
    + eapply NInv_upd; [exact I | reflexivity | reflexivity |].
      intros f E. injection E as <-. exact (forallb_plain_ok _ PI).
    + eapply pick_local with (c := CMInit m) (r0 := []);
        [eapply pool_tasks; [exact EX|reflexivity|reflexivity] | | | reflexivity | reflexivity].
      * rewrite TM. reflexivity.
      * rewrite (task_msgs_start b (tset_tinit x false) m) by auto. cbn [bench_react].
        rewrite ES, app_nil_r. reflexivity.
  - cbv zeta in H.
    replace (msg_cancelled s g) with false in H
      by (unfold msg_cancelled; destruct (mkd g); [symmetry; apply I|reflexivity]).
    destruct H as [-> ->]. split.
    + eapply NInv_upd; [exact I | reflexivity | reflexivity |].
      intros f E. injection E as <-. exact (forallb_plain_ok _ (PS g)).
    + destruct (msg_not_sink m g) as [NS SA].
      eapply pick_local with (c := cm_of_msg m g) (r0 := map (cm_of_msg m) restq);
        [eapply pool_tasks_box; [exact EX|reflexivity|exact EB|reflexivity] | | | | symmetry; apply SA].
      * rewrite TM, app_nil_r. reflexivity.
      * rewrite (task_msgs_start b x m) by assumption. rewrite (msg_react b m sp g ES). apply Permutation_app_comm.
      * cbn [log add_log set_log invs flat_map]. rewrite msg_entry_cm, NS. reflexivity.
Qed.

Lemma step_op_sim b s t s' :
  bench_plain b = true -> NInv s -> step_op b s t = Some s' -> NInv s' /\ sim_res b s s'.
Proof.
  intros HP I H. apply step_op_inv in H. destruct H as (x & f & EX & TF & FP & H).
  assert (OKF : forallb cop_ok (frest f) = true) by (destruct I as [I1 _]; exact (I1 _ _ _ EX TF)).
  destruct H as [(_ & _ & H)|[(FW & FR & ->)|(FW & o & rest & FR & x' & f' & O)]].
  - (* the wait is over *)
    cbv zeta in H. set (x' := tset_tfr x (Some (fset_fwait f []))) in H.
    assert (E : tasks s' = lupd (tasks s) t x' /\ boxes s' = boxes s /\ cancelled s' = cancelled s /\
                invs (log s') = invs (log s) /\ sinks s' = sinks s)
      by (destruct (task_model x); subst s'; repeat split; reflexivity).
    destruct E as (ET & EB & EC & EL & ESK).
    destruct (task_stutter b s s' t x x' I EX ET EB) as [I1 P].
    + intros k. rewrite (key_cancelled_ext _ _ EC). apply I.
    + intros f0 E0. injection E0 as <-. exact OKF.
    + unfold task_msgs. cbn. rewrite TF. reflexivity.
    + split; [exact I1|]. apply sim_stutter; assumption.
  - (* the script is over *)
    destruct (finished_spec x) as (TF1 & TK1 & TI1 & _).
    destruct (task_stutter b s (set_task s t (finished x)) t x _ I EX eq_refl eq_refl) as [I1 P].
    + apply I.
    + rewrite TF1. discriminate.
    + unfold task_msgs, frame_msgs. rewrite TF1, TK1, TI1, TF, FP, FR. reflexivity.
    + destruct (deliver_reply_stutter b _ (freply f) I1) as (I2 & P2 & DL & DS). split; [exact I2|].
      apply sim_stutter; [rewrite P2; exact P | rewrite DL; reflexivity | rewrite DS; reflexivity].
  - (* one op of the script *)
    rewrite FR in OKF. cbn [forallb] in OKF. apply andb_prop in OKF. destruct OKF as [OKo OKr].
    pose proof (os_tfr O) as TF'. pose proof (os_tk O) as TK'. pose proof (os_tinit O) as TI'.
    pose proof (os_frest O) as FR'. pose proof (os_fin O) as FI. pose proof (os_fpend O) as FP'.
    destruct (task_stutter b s s' t x x' I EX (os_tasks O) (os_boxes O)) as [I1 P].
    + apply (key_cancelled_grow s); [apply I|]. destruct (os_cancelled O) as [EC|[sl ->]]; [exact EC|discriminate OKo].
    + rewrite TF'. intros f0 E0. injection E0 as <-. rewrite FR'. exact OKr.
    + unfold task_msgs, frame_msgs, task_model. rewrite TF', TK', TI', TF, FP, FP', FR, FR', FI, op_deliveries_cm.
      reflexivity.
    + split; [exact I1|]. apply sim_stutter; [exact P | | exact (os_sinks O)].
      destruct (os_log O) as [->|[c ->]]; reflexivity.
Qed.

Lemma step_deliver_sim b s t i s' :
  bench_plain b = true -> NInv s -> step_deliver b s t i = Some s' -> NInv s' /\ sim_res b s s'.
Proof.
  intros HP I H. apply step_deliver_inv in H. destruct H as (x & f & d & EX & TF & ED & H). cbv zeta in H.
  assert (OKF : forallb cop_ok (frest f) = true) by (destruct I as [I1 _]; exact (I1 _ _ _ EX TF)).
  pose proof (Permutation_map cm_of_delivery (ldel_perm _ _ _ ED)) as PD. cbn [map] in PD.
  set (x' := tset_tfr x (Some (fset_fpend f (ldel (fpend f) i)))) in *.
  assert (NI : forall s1, tasks s1 = lupd (tasks s) t x' -> cancelled s1 = cancelled s -> NInv s1).
  { intros s1 ET EC. eapply NInv_upd; [exact I|exact ET|exact EC|]. intros f0 E0. injection E0 as <-. exact OKF. }
  (* the delivery leaves the hands of the task *)
  assert (TM : Permutation (task_msgs b x) (cm_of_delivery d :: task_msgs b x')).
  { unfold task_msgs, x', frame_msgs. cbn [tinit tk tfr tset_tfr task_model fpend fin frest fset_fpend].
    rewrite TF, PD. cbn [app]. symmetry. apply Permutation_middle. }
  destruct (dtgt d) as [m g|sk v] eqn:DT.
  - destruct H as (sp & q & ES & EB & H). destruct (bench_plain_scripts b m sp HP ES) as (PL & _).
    destruct H as [[PL' _]|(_ & _ & ->)]; [congruence|]. split; [apply NI; reflexivity|].
    apply sim_stutter; [|reflexivity|reflexivity].
    eapply changes_same; [eapply pool_tasks_box; [exact EX|reflexivity|exact EB|reflexivity]|].
    fold x'. rewrite TM, map_app, (cm_model _ _ _ DT), <- app_assoc. reflexivity.
  - subst s'. split; [apply NI; reflexivity|].
    eapply pick_local with (c := CMSink sk v) (r0 := task_msgs b x');
      [eapply pool_tasks; [exact EX|reflexivity|reflexivity] | | reflexivity | reflexivity | reflexivity].
    rewrite TM, (cm_sink _ _ _ DT). reflexivity.
Qed.

Theorem net_step_sim b s l s' :
  bench_plain b = true -> NInv s -> net_step b s l = Some s' -> NInv s' /\ sim_res b s s'.
Proof.
  intros HP I. unfold net_step. destruct (err s); [discriminate|]. destruct l as [t|t|t i].
  - apply step_start_sim; assumption.
  - apply step_op_sim; assumption.
  - apply step_deliver_sim; assumption.
Qed.

(* Every run of the net model is a schedule of the pool: L lists the messages picked, in order; the
   invocation entries appended to the log are exactly the non-sink members of L, and the sinks are
   what the sink members of L wrote, in that order. *)
Theorem net_run_is_pool_schedule b (HP : bench_plain b = true) fuel : forall ch s nd s' nd',
  NInv s -> net_run b fuel ch s nd = Some (s', nd') ->
  NInv s' /\ exists L,
    pruns (bench_react b) (pool_of b s) L (pool_of b s') /\
    invs (log s') = rev (filter cm_logged L) ++ invs (log s) /\
    sinks s' = fold_left sink_apply L (sinks s).
Proof.
  intros ch s nd s' nd' I H. revert I.
  refine (proj1 (net_run_steps b (fun s s' => NInv s -> NInv s' /\ exists L,
    pruns (bench_react b) (pool_of b s) L (pool_of b s') /\
    invs (log s') = rev (filter cm_logged L) ++ invs (log s) /\
    sinks s' = fold_left sink_apply L (sinks s)) _ _ fuel ch s nd s' nd' H)).
  { intros s0 I. split; [exact I|]. exists []. repeat split. constructor. reflexivity. }
  intros s0 l s1 s2 ES IH I.
  destruct (net_step_sim b s0 _ s1 HP I ES) as [I1 SR].
  destruct (IH I1) as [I' [L [HR [HL HS]]]]. split; [exact I'|].
  destruct SR as [PP EL ESK | c0 rest0 P1 P2 EL ESK].
  - exists L. split; [eapply pruns_perm_l; [exact HR | exact PP]|]. split.
    + rewrite HL, EL. reflexivity.
    + rewrite HS, ESK. reflexivity.
  - exists (c0 :: L). split; [|split].
    + econstructor; [exact P1|]. eapply pruns_perm_l; [exact HR | exact P2].
    + rewrite HL, EL. cbn [filter]. unfold cm_logged at 2. destruct (is_sink_msg c0); cbn [negb rev app].
      * reflexivity.
      * rewrite <- app_assoc. reflexivity.
    + rewrite HS, ESK. reflexivity.
Qed.

Lemma net_run_complete b fuel ch s nd s' nd' :
  bench_plain b = true -> NInv s -> net_run b fuel ch s nd = Some (s', nd') -> pool_of b s' = [] ->
  exists L, cruns (bench_react b) (pool_of b s) L /\
            invs (log s') = rev (filter cm_logged L) ++ invs (log s) /\
            sinks s' = fold_left sink_apply L (sinks s).
Proof.
  intros HP I H E. destruct (net_run_is_pool_schedule b HP _ _ _ _ _ _ I H) as [_ [L [R G]]].
  rewrite E in R. exists L. split; [exact (pruns_nil_runs _ _ _ _ R) | exact G].
Qed.

Lemma sink_apply_filter L : forall sk,
  fold_left sink_apply L sk = fold_left sink_apply (filter is_sink_msg L) sk.
Proof.
  induction L as [|c L IH]; intros sk; [reflexivity|]. cbn [fold_left filter].
  destruct c; cbn [is_sink_msg fold_left sink_apply]; apply IH.
Qed.

(* C04, second sentence, for the net model: two runs from the same state, under ANY two choice lists,
   that both end with an empty pool have logged the same multiset of handler invocations and have
   performed the same multiset of sink writes. *)
Theorem net_confluent b s f1 ch1 nd1 s1 nd1' f2 ch2 nd2 s2 nd2' :
  bench_plain b = true -> NInv s ->
  net_run b f1 ch1 s nd1 = Some (s1, nd1') -> net_run b f2 ch2 s nd2 = Some (s2, nd2') ->
  pool_of b s1 = [] -> pool_of b s2 = [] ->
  exists l1 l2 w1 w2,
    invs (log s1) = l1 ++ invs (log s) /\ invs (log s2) = l2 ++ invs (log s) /\ Permutation l1 l2 /\
    sinks s1 = fold_left sink_apply w1 (sinks s) /\ sinks s2 = fold_left sink_apply w2 (sinks s) /\
    Permutation w1 w2.
Proof.
  intros HP I H1 H2 E1 E2.
  destruct (net_run_complete b _ _ _ _ _ _ HP I H1 E1) as [L1 [R1 [G1 K1]]].
  destruct (net_run_complete b _ _ _ _ _ _ HP I H2 E2) as [L2 [R2 [G2 K2]]].
  pose proof (conf_unique _ _ _ _ R1 _ _ (Permutation_refl _) R2) as PL.
  exists (rev (filter cm_logged L1)), (rev (filter cm_logged L2)), (filter is_sink_msg L1), (filter is_sink_msg L2).
  repeat split.
  - exact G1.
  - exact G2.
  - rewrite <- !Permutation_rev. apply perm_filter. exact PL.
  - rewrite K1. apply sink_apply_filter.
  - rewrite K2. apply sink_apply_filter.
  - apply perm_filter. exact PL.
Qed.

(* ... and no schedule can do more: if one run ends with an empty pool, any other run from the same
   state - complete or not - has logged at most as many invocations. *)
Theorem net_no_longer_run b s f1 ch1 nd1 s1 nd1' f2 ch2 nd2 s2 nd2' :
  bench_plain b = true -> NInv s ->
  net_run b f1 ch1 s nd1 = Some (s1, nd1') -> net_run b f2 ch2 s nd2 = Some (s2, nd2') ->
  pool_of b s1 = [] ->
  exists l1 l2, invs (log s1) = l1 ++ invs (log s) /\ invs (log s2) = l2 ++ invs (log s) /\
                length l2 <= length l1.
Proof.
  intros HP I H1 H2 E1.
  destruct (net_run_complete b _ _ _ _ _ _ HP I H1 E1) as [L1 [R1 [G1 _]]].
  destruct (net_run_is_pool_schedule b HP _ _ _ _ _ _ I H2) as [_ [L2 [R2 [G2 _]]]].
  destruct (conf_complete _ _ _ _ _ R2 _ R1) as [L3 [_ PL]].
  exists (rev (filter cm_logged L1)), (rev (filter cm_logged L2)). repeat split; [exact G1 | exact G2|].
  rewrite !rev_length. rewrite (Permutation_length (perm_filter cm_logged _ _ PL)), filter_app, app_length. lia.
Qed.

(* Non-vacuity: the initial state of a plain bench satisfies the invariant, a process call keeps it, and
   two different choice lists on conf_bench reach an empty pool with differently ordered logs. *)
Lemma NInv_no_frames s :
  (forall t x, nth_error (tasks s) t = Some x -> tfr x = None) -> cancelled s = [] -> NInv s.
Proof.
  intros H C. split.
  - intros t x f E F. rewrite (H _ _ E) in F. discriminate.
  - intros [[|k]|]; unfold key_cancelled; rewrite ?C; reflexivity.
Qed.

Lemma ninv_check_sound s : ninv_check s = true -> NInv s.
Proof.
  unfold ninv_check. intros H. apply andb_prop in H. destruct H as [H1 H2]. split.
  - intros t x f E F. rewrite forallb_forall in H1. specialize (H1 x (nth_error_In _ _ E)).
    rewrite F in H1. exact H1.
  - intros [k|]; [|reflexivity]. unfold key_cancelled.
    destruct (nth_error (cancelled s) k) as [[|]|] eqn:E; try reflexivity.
    rewrite forallb_forall in H2. specialize (H2 true (nth_error_In _ _ E)). discriminate.
Qed.

Definition conf_start : state :=
  spawn (spawn (fst (fst (sim_init conf_bench 100 []))) [OEvent 0 0 4 None]) [OEvent 0 0 5 None].

Example net_confluent_nonvacuous :
  bench_plain conf_bench = true /\ NInv conf_start /\
  exists s1 s2 nd1 nd2,
    net_run conf_bench 500 [] conf_start false = Some (s1, nd1) /\
    net_run conf_bench 500 [3; 1; 4; 1; 5; 9; 2; 6; 5; 3; 5; 8; 9; 7; 9] conf_start false = Some (s2, nd2) /\
    pool_of conf_bench s1 = [] /\ pool_of conf_bench s2 = [] /\
    invs (log s1) <> invs (log s2) /\ length (invs (log s1)) = 10.
Proof.
  split; [vm_compute; reflexivity|]. split; [apply ninv_check_sound; vm_compute; reflexivity|].
  eexists. eexists. eexists. eexists.
  split; [vm_compute; reflexivity|]. split; [vm_compute; reflexivity|].
  split; [vm_compute; reflexivity|]. split; [vm_compute; reflexivity|].
  split; [vm_compute; intro H; discriminate H | vm_compute; reflexivity].
Qed.

(* exactly once (C03) on the pool: what a complete schedule invokes is, as a multiset, exactly the
   initial pool plus everything the invoked handlers sent: nothing lost, duplicated or invented *)
Theorem cruns_balance {M} (react : M -> list M) P L :
  cruns react P L -> Permutation L (P ++ flat_map react L).
Proof.
  induction 1 as [|P m rest L Hp Hr IH]; [reflexivity|].
  cbn [flat_map]. rewrite Hp. cbn [app]. constructor. rewrite IH at 1.
  rewrite <- app_assoc. apply Permutation_app_swap_app.
Qed.

Theorem net_processed_is_sent b fuel ch s nd s' nd' :
  bench_plain b = true -> NInv s -> net_run b fuel ch s nd = Some (s', nd') -> pool_of b s' = [] ->
  exists L, Permutation L (pool_of b s ++ flat_map (bench_react b) L) /\
            invs (log s') = rev (filter cm_logged L) ++ invs (log s) /\
            sinks s' = fold_left sink_apply L (sinks s).
Proof.
  intros HP I H E. destruct (net_run_complete b _ _ _ _ _ _ HP I H E) as [L [R G]].
  exists L. split; [exact (cruns_balance _ _ _ R) | exact G].
Qed.
