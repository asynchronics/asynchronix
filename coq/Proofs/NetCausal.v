(* Processing order = enqueue order, for any execution: the messages a model has started processing, in the
   order it started them, are the first `deqs` messages of its initial mailbox content followed by everything
   enqueued into it, in enqueue order.  Hence if M1 is enqueued into B's mailbox before M3 - which is what "the
   sending of M1 happens before the sending of M3" means in an interleaving semantics where a send completes by
   its enqueue - B processes M1 before M3, whatever the schedule, the mailbox capacities and the suspensions. *)
Require Import NX.Base.Prelude NX.Model.Sim.
Require Import NX.Proofs.NetTrace.

Fixpoint procs (b : bench) (s : state) (ls : list label) (m : nat) : list msg :=
  match ls with
  | [] => []
  | l :: r =>
      match net_step b s l with
      | Some s1 =>
          (match step_event b s l m with
           | Some MDeq => match nth_error (boxes s) m with Some (g :: _) => [g] | _ => [] end
           | _ => []
           end) ++ procs b s1 r m
      | None => []
      end
  end.

Theorem procs_prefix b : forall ls s s' m q,
  net_exec b s ls = Some s' -> nth_error (boxes s) m = Some q ->
  procs b s ls m = firstn (deqs b s ls m) (q ++ enqs b s ls m).
Proof.
  induction ls as [|l r IH]; intros s s' m q He Hq; [reflexivity|].
  cbn [net_exec procs deqs enqs] in *. destruct (net_step b s l) as [s1|] eqn:Es; [|discriminate].
  pose proof (step_event_spec b s l s1 m q Es Hq) as Hsp.
  destruct (step_event b s l m) as [[g|]|].
  - rewrite (IH s1 s' m (q ++ [g]) He Hsp). cbn [app Nat.add]. rewrite <- app_assoc. reflexivity.
  - destruct Hsp as (g & rest & -> & Hrest). rewrite Hq.
    rewrite (IH s1 s' m rest He Hrest). reflexivity.
  - rewrite (IH s1 s' m q He Hsp). reflexivity.
Qed.

Corollary processed_in_enqueue_order b ls s s' m q k g :
  net_exec b s ls = Some s' -> nth_error (boxes s) m = Some q ->
  nth_error (procs b s ls m) k = Some g -> nth_error (q ++ enqs b s ls m) k = Some g.
Proof.
  intros He Hq Hk. rewrite (procs_prefix b ls s s' m q He Hq) in Hk.
  revert Hk. generalize (q ++ enqs b s ls m) as l. generalize (deqs b s ls m) as n. clear.
  intros n; revert k; induction n as [|n IH]; intros k l Hk; [destruct k; discriminate|].
  destruct l as [|x l]; [destruct k; discriminate|]. destruct k as [|k]; [exact Hk|]. cbn in *. apply IH. exact Hk.
Qed.
