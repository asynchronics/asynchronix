(* Proofs about Model/Broadcast.v: replies are matched to the accepting repliers in connection
   order and the broadcast completes only when all of them have replied; whenever the broadcast
   future returns Pending the parent is armed (its waker registered, the countdown at one, nothing
   scheduled), so that the next wake-up of any sub-future notifies it. *)
Require Import NX.Base.Prelude NX.Base.ListX NX.Model.Broadcast.

Ltac bproj := cbn [bn qno avl wk npoll script flt outs ts registered notifs fut sublog
                   set_env set_ts set_outs set_fut set_log tcount tlen sched iter countdown].

Definition same_core (s s' : bstate) : Prop :=
  bn s' = bn s /\ qno s' = qno s /\ outs s' = outs s /\ flt s' = flt s /\ fut s' = fut s /\
  tcount (ts s') = tcount (ts s) /\ iter (ts s') = iter (ts s).

Lemma same_core_refl s : same_core s s.
Proof. repeat split. Qed.

Lemma same_core_trans a b c : same_core a b -> same_core b c -> same_core a c.
Proof. unfold same_core. intros (A1 & A2 & A3 & A4 & A5 & A6 & A7) (B1 & B2 & B3 & B4 & B5 & B6 & B7). repeat split; congruence. Qed.

Lemma same_core_set_env s a w np : same_core s (set_env s a w np).
Proof. repeat split. Qed.

Lemma ts_wake_cases s p :
  in_list (ts s) p = true /\ ts_wake s p = s \/
  exists c r n, ts_wake s p =
    set_ts s {| tcount := tcount (ts s); tlen := tlen (ts s); sched := p :: sched (ts s); iter := iter (ts s); countdown := c |} r n.
Proof.
  unfold ts_wake. destruct (in_list (ts s) p); [left; split; reflexivity|right].
  destruct (Nat.eqb (countdown (ts s)) 1); [destruct (registered s)|]; do 3 eexists; reflexivity.
Qed.

Lemma fire_cases s w :
  fire s w = s \/ exists t r n, fire s w = set_ts s t r n /\ tcount t = tcount (ts s) /\ iter t = iter (ts s).
Proof.
  destruct w as [[|p]|]; cbn [fire]; [right; do 3 eexists; repeat split| |left; reflexivity].
  destruct (ts_wake_cases s p) as [[_ E]|(c & r & n & E)]; rewrite E; [left; reflexivity|right; do 3 eexists; repeat split].
Qed.

Lemma fire_core s w : same_core s (fire s w).
Proof.
  destruct (fire_cases s w) as [E|(t & r & n & E & Ht & Hi)]; rewrite E; [apply same_core_refl|repeat split; assumption].
Qed.

Definition EnvOk (s : bstate) : Prop :=
  forall j v, nth j (avl s) ANone = AOk v -> v = (1000 * qno s + Z.of_nat j)%Z.

Lemma fire_env s w : EnvOk s -> EnvOk (fire s w).
Proof. intros HE. destruct (fire_cases s w) as [E|(t & r & n & E & _)]; rewrite E; exact HE. Qed.

Lemma EnvOk_set_avl s j x w np :
  EnvOk s -> (forall v, x = AOk v -> v = (1000 * qno s + Z.of_nat j)%Z) -> EnvOk (set_env s (lupd (avl s) j x) w np).
Proof.
  intros HE Hx i v. cbn [avl qno set_env]. rewrite nth_lupd. destruct (Nat.eqb_spec i j) as [->|_]; [|apply HE].
  destruct (j <? length (avl s)); [apply Hx|apply HE].
Qed.

Lemma do_act_core s a : same_core s (do_act s a).
Proof.
  destruct a as [j|j|j]; cbn [do_act]; try apply fire_core;
    (eapply same_core_trans; [apply same_core_set_env|apply fire_core]).
Qed.

Lemma do_act_env s a : EnvOk s -> EnvOk (do_act s a).
Proof.
  intros HE. destruct a as [j|j|j]; cbn [do_act]; apply fire_env; [| |exact HE]; apply EnvOk_set_avl; try exact HE; intros v Hv.
  - injection Hv as <-. reflexivity.
  - discriminate.
Qed.

Lemma fold_act_spec acts : forall s, EnvOk s -> same_core s (fold_left do_act acts s) /\ EnvOk (fold_left do_act acts s).
Proof.
  induction acts as [|a r IH]; intros s HE; cbn [fold_left]; [split; [apply same_core_refl|exact HE]|].
  destruct (IH _ (do_act_env s a HE)) as [C E]. split; [exact (same_core_trans _ _ _ (do_act_core s a) C)|exact E].
Qed.

Lemma sub_poll_spec s j tg s' r :
  sub_poll s j tg = (s', r) -> EnvOk s ->
  same_core s s' /\ EnvOk s' /\ (forall v, r = AOk v -> v = (1000 * qno s + Z.of_nat j)%Z).
Proof.
  unfold sub_poll. intros H HE.
  set (s1 := set_log (set_env s (avl s) (wk s) (lupd (npoll s) j (S (nth j (npoll s) 0)))) (sublog s ++ [j])) in *.
  destruct (fold_act_spec (lookup_script (script s) j (nth j (npoll s) 0)) s1 HE) as [C2 E2].
  set (s2 := fold_left do_act _ s1) in *. change (same_core s s2) in C2.
  (* the result is what is available after the scripted actions; only the waker may be registered afterwards *)
  assert (Hs' : same_core s2 s' /\ avl s' = avl s2 /\ r = nth j (avl s2) ANone)
    by (destruct (nth j (avl s2) ANone); injection H as <- <-; repeat split).
  destruct Hs' as (C' & Ea & ->). split; [exact (same_core_trans _ _ _ C2 C')|].
  destruct C2 as (_ & Eq & _), C' as (_ & Eq' & _).
  split; [intros i v; rewrite Ea, Eq'; apply E2|]. intros v Hv. rewrite <- Eq. apply E2. exact Hv.
Qed.

Fixpoint count_none (l : list (option Z)) : nat :=
  match l with [] => 0 | None :: r => S (count_none r) | Some _ :: r => count_none r end.

Definition OutsOk (s : bstate) (acc : list nat) : Prop :=
  forall p v, p < length acc -> nth p (outs s) None = Some v ->
              exists j, nth_error acc p = Some j /\ v = (1000 * qno s + Z.of_nat j)%Z.

Definition CountOk (s : bstate) (acc : list nat) (pend : nat) : Prop :=
  length acc <= length (outs s) /\ pend = count_none (firstn (length acc) (outs s)).

Lemma count_none_lupd l p v n :
  p < n -> n <= length l -> nth p l None = None ->
  S (count_none (firstn n (lupd l p (Some v)))) = count_none (firstn n l).
Proof.
  revert p n; induction l as [|x r IH]; intros p n Hp Hn Hx; [cbn in Hn; lia|].
  destruct n as [|n]; [lia|]. destruct p as [|p]; cbn [lupd firstn nth] in *.
  - subst x. cbn [count_none]. reflexivity.
  - cbn [length] in Hn. destruct x; cbn [count_none]; [|f_equal]; apply IH; auto; lia.
Qed.

Record MInv (s : bstate) (acc : list nat) (pend : nat) : Prop := {
  mi_env : EnvOk s; mi_outs : OutsOk s acc; mi_count : CountOk s acc pend; mi_tc : tcount (ts s) = length acc
}.

Lemma MInv_ext s s' acc pend :
  MInv s acc pend -> EnvOk s' -> qno s' = qno s -> outs s' = outs s -> tcount (ts s') = tcount (ts s) -> MInv s' acc pend.
Proof. intros [A B C D] HE Hq Ho Ht. constructor; unfold OutsOk, CountOk; rewrite ?Ho, ?Hq, ?Ht; assumption. Qed.

Lemma MInv_fill s acc pend p j v :
  MInv s acc pend -> nth_error acc p = Some j -> v = (1000 * qno s + Z.of_nat j)%Z -> nth p (outs s) None = None ->
  MInv (set_outs s (lupd (outs s) p (Some v))) acc (pend - 1).
Proof.
  intros [HE HO [Hlen Hcnt] Ht] Ej Hv Hpn. pose proof (nth_error_some_lt _ _ _ Ej) as Hp.
  constructor; [exact HE| | |exact Ht].
  - intros q w Hq Hw. cbn [outs qno set_outs] in *. rewrite nth_lupd in Hw.
    destruct (Nat.eqb_spec q p) as [->|_]; [|apply HO; assumption].
    destruct (p <? length (outs s)); [|apply HO; assumption]. injection Hw as <-. exists j. split; [exact Ej|exact Hv].
  - unfold CountOk. cbn [outs set_outs]. rewrite lupd_length. split; [exact Hlen|].
    pose proof (count_none_lupd (outs s) p v (length acc) Hp Hlen Hpn). lia.
Qed.

Definition frame (s s' : bstate) : Prop :=
  bn s' = bn s /\ qno s' = qno s /\ flt s' = flt s /\ length (outs s') = length (outs s).

Lemma frame_refl s : frame s s. Proof. repeat split. Qed.
Lemma frame_trans a b c : frame a b -> frame b c -> frame a c.
Proof. unfold frame. intros (A1 & A2 & A3 & A5) (B1 & B2 & B3 & B5). repeat split; congruence. Qed.

Lemma same_core_frame s s' : same_core s s' -> frame s s'.
Proof. intros (B1 & B2 & B3 & B4 & _). repeat split; congruence. Qed.

Definition reply (s : bstate) (j : nat) : Z := (1000 * qno s + Z.of_nat j)%Z.

(* What holds throughout a poll of a multi-replier future that began in state [s0]: the slots and the
   pending counter agree, what the set of accepting repliers and their replies depend on is as in [s0],
   and [it] is what remains of the task iterator. *)
Definition Live (s0 : bstate) (it : list nat) (s : bstate) (pend : nat) : Prop :=
  MInv s (accepted s0) pend /\ frame s0 s /\ iter (ts s) = it.

Lemma Live_set_ts s0 it s pend t r nf it' :
  Live s0 it s pend -> tcount t = tcount (ts s) -> iter t = it' -> Live s0 it' (set_ts s t r nf) pend.
Proof.
  intros (HM & F & _) Et Ei. split; [|split; [exact F|exact Ei]].
  exact (MInv_ext s (set_ts s t r nf) _ pend HM (mi_env _ _ _ HM) eq_refl eq_refl Et).
Qed.

Lemma Live_sub_poll s0 it s pend j tg s' r :
  Live s0 it s pend -> sub_poll s j tg = (s', r) ->
  Live s0 it s' pend /\ outs s' = outs s /\ (forall v, r = AOk v -> v = reply s' j).
Proof.
  intros (HM & F & I) H. destruct (sub_poll_spec _ _ _ _ _ H (mi_env _ _ _ HM)) as (C & E & Hv).
  pose proof (frame_trans _ _ _ F (same_core_frame _ _ C)) as F'. destruct C as (_ & Eq & Eo & _ & _ & Et & Ei).
  split; [|split; [exact Eo|unfold reply; rewrite Eq; exact Hv]].
  split; [apply (MInv_ext s); assumption|]. split; [exact F'|congruence].
Qed.

Lemma Live_fill s0 it s pend p j :
  Live s0 it s pend -> nth_error (accepted s0) p = Some j -> nth p (outs s) None = None ->
  Live s0 it (set_outs s (lupd (outs s) p (Some (reply s j)))) (pend - 1).
Proof.
  intros (HM & F & I) Ej Hp. split; [exact (MInv_fill _ _ _ _ _ _ HM Ej eq_refl Hp)|]. split; [|exact I].
  unfold frame in *. cbn [bn qno flt outs set_outs]. rewrite lupd_length. exact F.
Qed.

Lemma poll_tasks_spec s0 it skip : forall ps s pend s' pend' err,
  poll_tasks s (accepted s0) pend ps skip = (s', pend', err) -> Live s0 it s pend ->
  (forall p, In p ps -> p < length (accepted s0)) ->
  (skip = true \/ (NoDup ps /\ forall p, In p ps -> nth p (outs s) None = None)) ->
  Live s0 it s' pend'.
Proof.
  induction ps as [|p r IH]; intros s pend s' pend' err H HL Hlt Hnone; cbn [poll_tasks] in H.
  - injection H as <- <- <-. exact HL.
  - assert (Hr : forall q, In q r -> q < length (accepted s0)) by (intros q Hq; apply Hlt; right; exact Hq).
    assert (Hnone_r : forall s1, (forall q, q <> p -> nth q (outs s1) None = nth q (outs s) None) ->
              skip = true \/ (NoDup r /\ forall q, In q r -> nth q (outs s1) None = None)).
    { intros s1 Hsame. destruct Hnone as [Hs|[Hnd Hall]]; [left; exact Hs|right].
      inversion Hnd; subst. split; [assumption|]. intros q Hq. rewrite Hsame; [apply Hall; right; exact Hq|].
      intros ->. contradiction. }
    destruct (skip && match nth p (outs s) None with Some _ => true | None => false end) eqn:Hskip.
    + apply (IH s pend s' pend' err H HL Hr). apply (Hnone_r s). auto.
    + assert (Hpn : nth p (outs s) None = None).
      { destruct Hnone as [->|[_ Hall]]; [|apply Hall; left; reflexivity].
        cbn [andb] in Hskip. destruct (nth p (outs s) None); [discriminate|reflexivity]. }
      destruct (nth_error (accepted s0) p) as [j|] eqn:Ej.
      2:{ apply nth_error_None in Ej. specialize (Hlt p (or_introl eq_refl)). lia. }
      destruct (sub_poll s j (TTask p)) as [s1 res] eqn:Esp.
      destruct (Live_sub_poll _ _ _ _ _ _ _ _ HL Esp) as (HL1 & Eo & Hv).
      destruct res as [|v|].
      * apply (IH s1 pend s' pend' err H HL1 Hr). apply Hnone_r. intros q _. rewrite Eo. reflexivity.
      * pose proof (Hv v eq_refl) as ->.
        refine (IH _ _ s' pend' err H (Live_fill _ _ _ _ _ _ HL1 Ej _) Hr _); [rewrite Eo; exact Hpn|].
        apply Hnone_r. intros q Hq. cbn [outs set_outs]. rewrite nth_lupd, Eo.
        destruct (Nat.eqb_spec q p); [contradiction|reflexivity].
      * injection H as <- <- <-. exact HL1.
Qed.

Lemma poll_iter_spec s0 : forall fuel it s pend s' pend' err,
  poll_iter fuel s (accepted s0) pend = (s', pend', err) -> Live s0 it s pend -> length it < fuel -> Live s0 [] s' pend'.
Proof.
  induction fuel as [|fuel IH]; intros it s pend s' pend' err H HL Hf; [lia|]. cbn [poll_iter] in H.
  pose proof HL as (HM & _ & I). rewrite I in H. destruct it as [|p r]; cbn [length] in Hf.
  - injection H as <- <- <-. exact HL.
  - set (sa := set_ts s {| tcount := tcount (ts s); tlen := tlen (ts s); sched := sched (ts s); iter := r; countdown := countdown (ts s) |}
                        (registered s) (notifs s)) in *.
    assert (HLa : Live s0 r sa pend) by (apply (Live_set_ts s0 (p :: r) s); [exact HL|reflexivity|reflexivity]).
    destruct (Nat.ltb_spec p (tcount (ts s))) as [Hp|Hp]; [|apply (IH r sa pend s' pend' err H HLa); lia].
    destruct (poll_tasks sa (accepted s0) pend [p] true) as [[s1 pend1] e1] eqn:Ept.
    assert (HL1 : Live s0 r s1 pend1).
    { apply (poll_tasks_spec s0 r true [p] _ _ _ _ _ Ept HLa); [|left; reflexivity].
      intros q [<-|[]]. rewrite <- (mi_tc _ _ _ HM). exact Hp. }
    destruct e1.
    + injection H as <- <- <-. apply (Live_set_ts s0 r s1); [exact HL1|reflexivity|reflexivity].
    + apply (IH r s1 pend1 s' pend' err H HL1). lia.
Qed.

Definition armed (s : bstate) : Prop :=
  registered s = true /\ countdown (ts s) = 1 /\ sched (ts s) = [] /\ iter (ts s) = [].

Lemma poll_loop_spec s0 : forall fuel s pend s' pend' r,
  poll_loop fuel s (accepted s0) pend = (s', pend', r) -> Live s0 [] s pend ->
  Live s0 [] s' pend' /\ match r with LPend => armed s' | LOk => pend' = 0 | _ => True end.
Proof.
  induction fuel as [|fuel IH]; intros s pend s' pend' r H HL; cbn [poll_loop] in H.
  - injection H as <- <- <-. split; [exact HL|exact I].
  - pose proof HL as (_ & _ & Hi). unfold ts_take in H. destruct (sched (ts s)) as [|p0 l0] eqn:Es.
    + (* nothing scheduled: the waker is registered and the countdown set to one *)
      cbn [ts set_ts] in H. rewrite Es in H. injection H as <- <- <-. split; [|unfold armed; bproj; repeat split; exact Hi].
      apply (Live_set_ts s0 [] (set_ts s (ts s) true (notifs s))); [|reflexivity|exact Hi].
      apply (Live_set_ts s0 [] s); [exact HL|reflexivity|exact Hi].
    + rewrite Es in H.
      set (s2 := set_ts s {| tcount := tcount (ts s); tlen := tlen (ts s); sched := []; iter := p0 :: l0; countdown := 0 |}
                        (registered s) (notifs s)) in *.
      assert (HL2 : Live s0 (p0 :: l0) s2 pend) by (apply (Live_set_ts s0 [] s); [exact HL|reflexivity|reflexivity]).
      destruct (poll_iter _ s2 (accepted s0) pend) as [[s3 pend3] e3] eqn:Epi.
      assert (HL3 : Live s0 [] s3 pend3) by (apply (poll_iter_spec s0 _ _ _ _ _ _ _ Epi HL2); cbn; lia).
      destruct e3; [injection H as <- <- <-; split; [exact HL3|exact I]|].
      destruct (Nat.eqb_spec pend3 0) as [E0|E0]; [injection H as <- <- <-; split; [exact HL3|exact E0]|].
      exact (IH s3 pend3 s' pend' r H HL3).
Qed.

(* no wake-up is lost once the parent is armed *)
Theorem armed_wake_notifies s p :
  armed s -> notifs (ts_wake s p) = S (notifs s) /\ sched (ts (ts_wake s p)) = [p] /\ registered (ts_wake s p) = false.
Proof.
  intros (R & C & S & I). unfold ts_wake, in_list. rewrite S, I. cbn [existsb orb].
  rewrite C. cbn [Nat.eqb]. rewrite R. bproj. auto.
Qed.

(* further wake-ups accumulate in the scheduled list; none of them is dropped *)
Theorem wake_is_recorded s p : In p (sched (ts (ts_wake s p))) \/ In p (iter (ts (ts_wake s p))).
Proof.
  destruct (ts_wake_cases s p) as [[E ->]|(c & r & n & ->)]; [|left; left; reflexivity].
  unfold in_list in E. apply orb_true_iff in E. destruct E as [E|E]; apply existsb_exists in E;
    destruct E as (x & Hx & Ex); apply Nat.eqb_eq in Ex; subst x; auto.
Qed.

Lemma all_some (f : nat -> Z) : forall (xs : list nat) (l : list (option Z)),
  length xs <= length l -> count_none (firstn (length xs) l) = 0 ->
  (forall p v, p < length xs -> nth p l None = Some v -> exists j, nth_error xs p = Some j /\ v = f j) ->
  firstn (length xs) l = map (fun j => Some (f j)) xs.
Proof.
  induction xs as [|x xs IH]; intros l Hl Hc Hv; [reflexivity|].
  destruct l as [|o l]; [cbn in Hl; lia|]. cbn [length firstn map] in *.
  destruct o as [v|]; [|cbn in Hc; discriminate]. cbn [count_none] in Hc.
  destruct (Hv 0 v ltac:(lia) eq_refl) as (j & Ej & Ev). cbn in Ej. injection Ej as <-. subst v.
  f_equal. apply IH; [lia|exact Hc|]. intros p v Hp Hn. apply (Hv (S p) v ltac:(lia) Hn).
Qed.

Lemma opt_vals_map_some (f : nat -> Z) (xs : list nat) : opt_vals (map (fun j => Some (f j)) xs) = map f xs.
Proof. induction xs as [|x r IH]; cbn; [reflexivity|rewrite IH; reflexivity]. Qed.

Lemma forallb_some_map (f : nat -> Z) (xs : list nat) :
  forallb (fun o : option Z => match o with Some _ => true | None => false end) (map (fun j => Some (f j)) xs) = true.
Proof. induction xs; cbn; auto. Qed.

Definition taken (m : option nat) (count : nat) : nat := match m with None => count | Some k => Nat.min k count end.

Lemma take_replies_full s acc m :
  firstn (length acc) (outs s) = map (fun j => Some (reply s j)) acc ->
  take_replies s (length acc) m =
  (set_outs s (clear_first (taken m (length acc)) (outs s)), Some (firstn (taken m (length acc)) (map (reply s) acc))).
Proof.
  intros Hall. unfold take_replies. fold (taken m (length acc)). set (k := taken m (length acc)).
  assert (Hk : k <= length acc) by (unfold k, taken; destruct m; lia).
  assert (Hgot : firstn k (outs s) = map (fun j => Some (reply s j)) (firstn k acc)).
  { rewrite <- (Nat.min_l _ _ Hk) at 1. rewrite <- firstn_firstn, Hall, firstn_map. reflexivity. }
  rewrite Hgot, forallb_some_map, map_length, firstn_length, Nat.min_l by exact Hk.
  rewrite Nat.eqb_refl. cbn [andb]. rewrite opt_vals_map_some, firstn_map. reflexivity.
Qed.

Definition consume_of (f : bfut) : option nat :=
  match f with FStart m => m | FSingle _ m => m | FMulti _ _ _ m => m end.

Definition BInv (s : bstate) : Prop :=
  EnvOk s /\ length (outs s) = bn s /\ iter (ts s) = [] /\
  match fut s with
  | Some (FMulti acc st pend m) => acc = accepted s /\ st = FPending /\ MInv s acc pend
  | Some (FSingle j m) => accepted s = [j]
  | _ => True
  end.

Lemma BInv_same_core s s' : same_core s s' -> EnvOk s' -> BInv s -> BInv s'.
Proof.
  intros (Ebn & Eqno & Eouts & Eflt & Efut & Etc & Eiter) HE' (HE & Hlo & Hit & Hf). unfold BInv, accepted in *.
  rewrite Efut, Eouts, Ebn, Eiter, Eflt.
  split; [exact HE'|]. split; [exact Hlo|]. split; [exact Hit|].
  destruct (fut s) as [[m|j m|acc st pend m]|]; auto.
  destruct Hf as (A & B & C). split; [exact A|]. split; [exact B|]. apply (MInv_ext s); assumption.
Qed.

Lemma accepted_frame s s' : frame s s' -> accepted s' = accepted s.
Proof. intros (A & _ & C & _). unfold accepted. rewrite A, C. reflexivity. Qed.

Lemma frame_outs_bn s s' : frame s s' -> length (outs s) = bn s -> length (outs s') = bn s'.
Proof. intros (A & _ & _ & D). congruence. Qed.

Lemma clear_first_length n : forall l : list (option Z), length (clear_first n l) = length l.
Proof. induction n as [|n IH]; intros [|x l]; cbn; auto. Qed.

Lemma clear_first_none n : forall (l : list (option Z)) p, p < n -> nth p (clear_first n l) None = None.
Proof.
  induction n as [|n IH]; intros l p Hp; [lia|]. destruct l as [|x l]; [destruct p; reflexivity|].
  cbn [clear_first]. destruct p as [|p]; [reflexivity|]. cbn [nth]. apply IH. lia.
Qed.

Lemma count_none_clear_first n : forall l : list (option Z), n <= length l -> count_none (firstn n (clear_first n l)) = n.
Proof.
  induction n as [|n IH]; intros l Hl; [reflexivity|]. destruct l as [|x l]; [cbn in Hl; lia|].
  cbn [clear_first firstn count_none]. f_equal. apply IH. cbn in Hl. lia.
Qed.

Lemma accepted_le s : length (accepted s) <= bn s.
Proof. unfold accepted. rewrite <- (seqn_length (bn s) 0) at 2. apply filter_length_le. Qed.

Definition expected (s : bstate) (m : option nat) : list Z :=
  firstn (taken m (length (accepted s))) (map (reply s) (accepted s)).

Lemma expected_frame s s' m : frame s s' -> expected s' m = expected s m.
Proof.
  intros F. unfold expected, reply. rewrite (accepted_frame _ _ F). destruct F as (_ & -> & _). reflexivity.
Qed.

Definition poll_post (s : bstate) (m : option nat) (s' : bstate) (r : bres) : Prop :=
  BInv s' /\
  (forall subs vs, r = BRPoll subs BOk vs -> vs = expected s m) /\
  (forall subs acc st pend m', r = BRPoll subs BPend [] -> fut s' = Some (FMulti acc st pend m') -> armed s').

Lemma poll_post_frame s0 s m s' r : frame s0 s -> poll_post s m s' r -> poll_post s0 m s' r.
Proof.
  intros F (A & B & C). split; [exact A|]. split; [|exact C].
  intros subs vs Hr. rewrite (B subs vs Hr). apply expected_frame. exact F.
Qed.

Lemma poll_post_err s m s1 subs :
  EnvOk s1 -> length (outs s1) = bn s1 -> iter (ts s1) = [] -> poll_post s m (set_fut s1 None) (BRPoll subs BErr []).
Proof. intros HE Hlo Hit. split; [repeat split; assumption|]. split; intros; discriminate. Qed.

Lemma finish_full s acc m s' r :
  EnvOk s -> firstn (length acc) (outs s) = map (fun j => Some (reply s j)) acc -> acc = accepted s ->
  length (outs s) = bn s -> iter (ts s) = [] -> finish s (length acc) m = (s', r) -> poll_post s m s' r.
Proof.
  intros HE Hall Hacc Hlo Hit Hfin. unfold finish in Hfin. rewrite (take_replies_full s acc m Hall) in Hfin. injection Hfin as <- <-.
  split; [|split].
  - unfold BInv. bproj. rewrite clear_first_length. repeat split; assumption.
  - intros subs vs Hr. injection Hr as _ <-. unfold expected. rewrite <- Hacc. reflexivity.
  - intros; discriminate.
Qed.

Lemma Live_err s0 s pend m subs :
  Live s0 [] s pend -> length (outs s0) = bn s0 -> poll_post s0 m (set_fut s None) (BRPoll subs BErr []).
Proof.
  intros (HM & F & I) Hlo. apply (poll_post_frame _ _ _ _ _ F), poll_post_err; [exact (mi_env _ _ _ HM)|exact (frame_outs_bn _ _ F Hlo)|exact I].
Qed.

Lemma Live_finish s0 s m s' r :
  Live s0 [] s 0 -> length (outs s0) = bn s0 -> finish s (length (accepted s0)) m = (s', r) -> poll_post s0 m s' r.
Proof.
  intros ([HE HO [Hlen Hcnt] _] & F & I) Hlo H. apply (poll_post_frame _ _ _ _ _ F).
  exact (finish_full s _ m s' r HE (all_some (reply s) _ _ Hlen (eq_sym Hcnt) HO) (eq_sym (accepted_frame _ _ F)) (frame_outs_bn _ _ F Hlo) I H).
Qed.

Lemma Live_pending s0 s pend m subs :
  Live s0 [] s pend -> length (outs s0) = bn s0 -> armed s ->
  poll_post s0 m (set_fut s (Some (FMulti (accepted s0) FPending pend m))) (BRPoll subs BPend []).
Proof.
  intros (HM & F & I) Hlo Ha. split; [|split; [intros; discriminate|intros; exact Ha]].
  split; [exact (mi_env _ _ _ HM)|]. split; [exact (frame_outs_bn _ _ F Hlo)|]. split; [exact I|].
  split; [symmetry; exact (accepted_frame _ _ F)|]. split; [reflexivity|].
  exact (MInv_ext s (set_fut s _) _ _ HM (mi_env _ _ _ HM) eq_refl eq_refl eq_refl).
Qed.

(* a future that has been started, about to be polled: as BInv, except that a multi-replier future may
   not have been polled yet (BroadcastFuture in state Uninit, every slot empty) *)
Definition Started (s : bstate) (m : option nat) : Prop :=
  EnvOk s /\ length (outs s) = bn s /\ iter (ts s) = [] /\
  match fut s with
  | Some (FMulti acc st pend m') =>
      m' = m /\ acc = accepted s /\
      (acc <> [] -> OutsOk s acc /\ CountOk s acc pend /\ tcount (ts s) = length acc /\
                    (st = FUninit -> forall p, p < length acc -> nth p (outs s) None = None))
  | Some (FSingle j m') => m' = m /\ accepted s = [j]
  | _ => False
  end.

(* first poll of the async fn: no accepting replier, one (its future is awaited directly), or
   several (BroadcastFuture::new) *)
Lemma start_future_started s m :
  EnvOk s -> length (outs s) = bn s -> iter (ts s) = [] -> Started (start_future s m) m /\ frame s (start_future s m).
Proof.
  intros HE Hlo Hit. pose proof (accepted_le s) as Hle. unfold start_future.
  assert (Hnil : accepted s = [] -> Started (set_fut s (Some (FMulti [] FUninit 0 m))) m).
  { intros Ha. split; [exact HE|]. split; [exact Hlo|]. split; [exact Hit|]. split; [reflexivity|].
    split; [symmetry; exact Ha|intros C; contradiction]. }
  destruct (bn s) as [|n'] eqn:Ebn.
  - split; [|repeat split]. apply Hnil. unfold accepted. rewrite Ebn. reflexivity.
  - destruct (accepted s) as [|j [|j2 rest]] eqn:Eacc.
    + split; [auto|repeat split].
    + repeat split; try assumption. bproj. congruence.
    + set (acc := j :: j2 :: rest) in *. rewrite <- Hlo in Hle.
      split; [|unfold frame; bproj; rewrite clear_first_length; repeat split].
      unfold Started, accepted. bproj. rewrite clear_first_length. fold (accepted s).
      split; [exact HE|]. split; [congruence|]. split; [exact Hit|]. split; [reflexivity|]. split; [symmetry; exact Eacc|].
      intros _. split; [|split; [|split; [reflexivity|intros _ p Hp; apply clear_first_none; exact Hp]]].
      * intros p v Hp Hv. cbn [outs set_fut set_outs] in Hv. rewrite clear_first_none in Hv by exact Hp. discriminate.
      * split; bproj; rewrite ?clear_first_length; [exact Hle|]. symmetry. apply count_none_clear_first. exact Hle.
Qed.

Lemma b_poll_start s m : fut s = Some (FStart m) -> b_poll s = b_poll (start_future (set_log s []) m).
Proof.
  intros H. unfold b_poll at 1. cbv zeta. change (fut (set_log s [])) with (fut s). rewrite H. unfold start_future.
  destruct (bn (set_log s [])); [reflexivity|]. destruct (accepted (set_log s [])) as [|j [|j2 rest]]; reflexivity.
Qed.

Lemma started_poll_spec s m s' r : Started s m -> b_poll s = (s', r) -> r <> BRFuel -> poll_post s m s' r.
Proof.
  intros HS H Hnf. unfold b_poll in H. cbv zeta in H.
  (* the poll starts by clearing the log of sub-polls, of which nothing here speaks *)
  change (Started (set_log s []) m) in HS. change (poll_post (set_log s []) m s' r).
  set (s0 := set_log s []) in *. clearbody s0. clear s. rename s0 into s.
  destruct HS as (HE & Hlo & Hit & Hf).
  destruct (fut s) as [[m0|j m'|acc st pend m']|] eqn:Ef; try contradiction; cbv beta iota in H; rewrite Ef in H.
  - (* one accepting replier, awaited directly *)
    destruct Hf as (-> & Hacc).
    destruct (sub_poll s j TParent) as [s1 res] eqn:Esp.
    destruct (sub_poll_spec _ _ _ _ _ Esp HE) as (C1 & E1 & Hv).
    pose proof (same_core_frame _ _ C1) as F1. pose proof (frame_outs_bn _ _ F1 Hlo) as Hlo1.
    assert (Hacc1 : accepted s1 = [j]) by (rewrite (accepted_frame _ _ F1); exact Hacc).
    destruct C1 as (_ & B2 & _ & _ & B6 & _ & B8).
    assert (Hit1 : iter (ts s1) = []) by congruence.
    destruct res as [|v|].
    + injection H as <- <-. split; [|split; [intros; discriminate|intros subs acc st pend m0 _ Hfu; congruence]].
      unfold BInv. rewrite B6, Ef. repeat split; assumption.
    + pose proof (accepted_le s1) as Hle. rewrite Hacc1, <- Hlo1 in Hle.
      destruct (outs s1) as [|o os] eqn:Eo; [cbn in Hle; lia|].
      set (s2 := set_outs s1 _) in H.
      refine (poll_post_frame _ _ _ _ _ _ (finish_full s2 [j] m s' r E1 _ (eq_sym Hacc1) _ Hit1 H)).
      * refine (frame_trans _ _ _ F1 _). unfold frame, s2. bproj. rewrite Eo. repeat split.
      * unfold reply, s2. bproj. rewrite B2, (Hv v eq_refl). reflexivity.
      * unfold s2. bproj. rewrite <- Hlo1. reflexivity.
    + injection H as <- <-. apply poll_post_err; assumption.
  - destruct Hf as (-> & -> & HM).
    destruct (accepted s) as [|a0 acc'] eqn:Eacc.
    + (* no accepting replier: complete at once *)
      apply (finish_full s [] m); auto.
    + rewrite <- Eacc in *. destruct (HM ltac:(rewrite Eacc; discriminate)) as (HO & HC & HT & Hslots).
      assert (HL0 : Live s [] s pend) by (split; [constructor; assumption|split; [apply frame_refl|exact Hit]]).
      (* the first poll discards stale wake-ups and polls every sub-future once *)
      destruct (match st with FUninit => _ | FPending => _ end) as [[[s1 pend1] e1] d1] eqn:Efp.
      assert (Hfp : Live s [] s1 pend1 /\ (d1 = true -> pend1 = 0)).
      { destruct st.
        - destruct (poll_tasks _ _ pend (seqn 0 _) false) as [[sa penda] ea] eqn:Ept. injection Efp as <- <- <- <-.
          split; [|apply Nat.eqb_eq]. apply (poll_tasks_spec s [] false _ _ _ _ _ _ Ept).
          + apply (Live_set_ts s [] s); [exact HL0|reflexivity|reflexivity].
          + intros p Hp. apply In_seqn in Hp. lia.
          + right. split; [apply NoDup_seqn|]. intros p Hp. apply In_seqn in Hp. apply Hslots; [reflexivity|lia].
        - injection Efp as <- <- <- <-. split; [exact HL0|discriminate]. }
      destruct Hfp as (HL1 & Hd).
      destruct e1; [injection H as <- <-; exact (Live_err _ _ _ _ _ HL1 Hlo)|].
      destruct d1; [rewrite (Hd eq_refl) in HL1; exact (Live_finish _ _ _ _ _ HL1 Hlo H)|].
      destruct (poll_loop (fuel_of s1) s1 _ pend1) as [[s2 pend2] lr] eqn:Epl.
      destruct (poll_loop_spec s _ _ _ _ _ _ Epl HL1) as (HL2 & P).
      destruct lr.
      * injection H as <- <-. exact (Live_pending _ _ _ _ _ HL2 Hlo P).
      * injection H as <- <-. exact (Live_err _ _ _ _ _ HL2 Hlo).
      * rewrite P in HL2. exact (Live_finish _ _ _ _ _ HL2 Hlo H).
      * injection H as <- <-. congruence.
Qed.

Theorem b_poll_spec s s' r :
  BInv s -> b_poll s = (s', r) -> r <> BRFuel ->
  BInv s' /\
  (forall subs vs f, r = BRPoll subs BOk vs -> fut s = Some f -> vs = expected s (consume_of f)) /\
  (forall subs acc st pend m, r = BRPoll subs BPend [] -> fut s' = Some (FMulti acc st pend m) -> armed s').
Proof.
  intros HI H Hnf.
  assert (Hpost : forall f, fut s = Some f -> poll_post s (consume_of f) s' r).
  { intros f Ef. destruct HI as (HE & Hlo & Hit & Hf). rewrite Ef in Hf. destruct f as [m|j m|acc st pend m]; cbn [consume_of].
    - rewrite (b_poll_start s m Ef) in H.
      destruct (start_future_started (set_log s []) m HE Hlo Hit) as [HS F].
      exact (poll_post_frame _ _ _ _ _ F (started_poll_spec _ _ _ _ HS H Hnf)).
    - apply started_poll_spec; [|exact H|exact Hnf]. unfold Started. rewrite Ef. auto.
    - apply started_poll_spec; [|exact H|exact Hnf]. destruct Hf as (A & -> & C). unfold Started. rewrite Ef.
      split; [exact HE|]. split; [exact Hlo|]. split; [exact Hit|]. split; [reflexivity|]. split; [exact A|].
      intros _. destruct C as [_ C2 C3 C4]. split; [exact C2|]. split; [exact C3|]. split; [exact C4|discriminate]. }
  destruct (fut s) as [f|] eqn:Ef.
  - destruct (Hpost f eq_refl) as (A & B & C). split; [exact A|]. split; [|exact C].
    intros subs vs f' Hr Hf'. injection Hf' as <-. eauto.
  - unfold b_poll in H. cbv zeta in H. change (fut (set_log s [])) with (fut s) in H. rewrite Ef in H. injection H as <- <-.
    split; [exact (BInv_same_core s (set_log s []) ltac:(repeat split) (proj1 HI) HI)|]. split; intros; discriminate.
Qed.

Theorem b_step_inv s o s' r : BInv s -> b_step s o = (s', r) -> r <> BRFuel -> BInv s'.
Proof.
  intros HI H Hnf. destruct o as [bits m|j k acts| |a| |]; cbn [b_step] in H; try (injection H as <- <-).
  - destruct HI as (HE & Hlo & Hit & _). repeat split; try assumption.
    intros j v Hj. cbn [avl] in Hj. rewrite nth_repeat in Hj. discriminate.
  - apply (BInv_same_core s); [repeat split|exact (proj1 HI)|exact HI].
  - exact (proj1 (b_poll_spec s s' r HI H Hnf)).
  - exact (BInv_same_core s _ (do_act_core s a) (do_act_env s a (proj1 HI)) HI).
  - destruct HI as (HE & Hlo & Hit & _). repeat split; assumption.
  - apply (BInv_same_core s); [repeat split|exact (proj1 HI)|exact HI].
Qed.

Lemma BInv_init n : BInv (b_init n).
Proof.
  repeat split; [|apply repeat_length]. intros j v Hj. cbn [b_init avl] in Hj. rewrite nth_repeat in Hj. discriminate.
Qed.

(* over whole runs: as long as the loop bound is not hit *)
Theorem b_run_inv ops : forall s, BInv s -> ~ In BRFuel (b_run s ops) -> BInv (b_exec s ops).
Proof.
  induction ops as [|o r IH]; intros s HI Hnf; cbn [b_exec]; [exact HI|].
  cbn [b_run] in Hnf. destruct (b_step s o) as [s1 x] eqn:E. cbn [fst].
  apply IH.
  - eapply b_step_inv; eauto. intros ->. apply Hnf. left. reflexivity.
  - intros Hin. apply Hnf. right. exact Hin.
Qed.

(* C14, for the broadcast of one query: every Ok carries exactly the replies of the accepting
   repliers of the current query, in connection order (as many as the caller takes) *)
Theorem b_run_replies n ops subs vs f :
  ~ In BRFuel (b_run (b_init n) (ops ++ [BOPoll])) ->
  last (b_run (b_init n) (ops ++ [BOPoll])) BRD = BRPoll subs BOk vs ->
  fut (b_exec (b_init n) ops) = Some f ->
  vs = expected (b_exec (b_init n) ops) (consume_of f).
Proof.
  intros Hnf Hlast Hfut.
  assert (Hrun : forall ops s, b_run s (ops ++ [BOPoll]) = b_run s ops ++ [snd (b_poll (b_exec s ops))]).
  { clear. induction ops as [|o r IH]; intros s; cbn [app b_run b_exec b_step].
    - destruct (b_poll s); reflexivity.
    - destruct (b_step s o) as [s1 x]. cbn [fst]. rewrite IH. reflexivity. }
  rewrite Hrun in Hnf, Hlast. rewrite last_last in Hlast.
  assert (HI : BInv (b_exec (b_init n) ops)).
  { apply b_run_inv; [apply BInv_init|]. intros Hin. apply Hnf. apply in_or_app. left. exact Hin. }
  destruct (b_poll (b_exec (b_init n) ops)) as [s' r] eqn:Ep. cbn [snd] in *.
  assert (Hr : r <> BRFuel) by (intros ->; apply Hnf; apply in_or_app; right; left; reflexivity).
  destruct (b_poll_spec _ _ _ HI Ep Hr) as (_ & B & _). eapply B; eauto.
Qed.

(* C04 (no lost wake-up): whenever a multi-replier broadcast returns Pending, the parent's waker
   is registered and the countdown is armed, so that the very next wake-up of a sub-future that is
   not already scheduled notifies the parent (armed_wake_notifies) *)
Theorem b_poll_pending_armed s s' subs acc st pend m :
  BInv s -> b_poll s = (s', BRPoll subs BPend []) -> fut s' = Some (FMulti acc st pend m) -> armed s'.
Proof.
  intros HI Hp Hf. destruct (b_poll_spec s s' _ HI Hp ltac:(discriminate)) as (_ & _ & C). eapply C; eauto.
Qed.
