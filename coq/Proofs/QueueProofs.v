(* The stamped ring buffer (Model/Queue.v) refines a bounded FIFO with one
   borrowable slot, for every capacity >= 1 and every operation sequence. *)
Require Import NX.Base.Prelude NX.Base.ListX NX.Model.Queue.

Section QueueProofs.
  Variable V : Type.
  Notation queue := (queue V).
  Notation fifo := (fifo V).

  Lemma mod_window c a m n : 1 <= c -> a <= m < a + c -> a <= n < a + c -> m mod c = n mod c -> m = n.
  Proof.
    intros Hc Hm Hn E.
    pose proof (Nat.div_mod m c ltac:(lia)) as Dm. pose proof (Nat.div_mod n c ltac:(lia)) as Dn.
    pose proof (Nat.mod_upper_bound m c ltac:(lia)). pose proof (Nat.mod_upper_bound n c ltac:(lia)).
    rewrite E in Dm. set (r := n mod c) in *. set (qm := m / c) in *. set (qn := n / c) in *.
    assert (qm = qn) by nia. subst qm. lia.
  Qed.

  Lemma mod_lap c m : 1 <= c -> (m + c) mod c = m mod c.
  Proof.
    intros Hc. replace (m + c) with (m + 1 * c) by lia. apply Nat.mod_add. lia.
  Qed.

  Definition lo (q : queue) : nat := qdeq q - (match qheld q with Some _ => 1 | None => 0 end).

  Record QI (q : queue) (f : fifo) : Prop := {
    qi_cap : qcap q = fcap f /\ qcap q >= 1 /\ length (qslots q) = qcap q;
    qi_closed : qclosed q = fclosed f;
    qi_len : qdeq q + length (fitems f) = qenq q /\ qenq q - lo q <= qcap q /\ lo q <= qenq q;
    qi_held : (fheld f = true <-> qheld q <> None) /\
              (forall i, qheld q = Some i -> qdeq q >= 1 /\ nth_error (qslots q) i = Some (SBor (qdeq q - 1)));
    qi_slots : forall i st, nth_error (qslots q) i = Some st ->
        match st with
        | SVac n => n mod qcap q = i /\ qenq q <= n < lo q + qcap q
        | SPop n v => n mod qcap q = i /\ qdeq q <= n < qenq q /\ nth_error (fitems f) (n - qdeq q) = Some v
        | SBor n => n mod qcap q = i /\ qheld q = Some i /\ n + 1 = qdeq q
        end
  }.

  Lemma held_iff q f : QI q f -> (fheld f = true <-> qheld q <> None).
  Proof. intros [_ _ _ [H _] _]. exact H. Qed.

  Lemma held_eq q f : QI q f -> fheld f = match qheld q with Some _ => true | None => false end.
  Proof.
    intros HQ. pose proof (held_iff q f HQ) as [A B]. destruct (qheld q) as [j|]; [apply B; discriminate|].
    destruct (fheld f); [destruct (A eq_refl eq_refl)|reflexivity].
  Qed.

  Lemma QI_outstanding q f : QI q f -> length (fitems f) + (if fheld f then 1 else 0) = qenq q - lo q.
  Proof.
    intros HQ. rewrite (held_eq q f HQ). destruct HQ as [_ _ [Hn _] [_ Hh] _]. unfold lo.
    destruct (qheld q) as [j|]; [destruct (Hh j eq_refl); lia|lia].
  Qed.

  (* qi_slots read by ticket: a ticket not yet handed back owns the slot at its residue *)
  Lemma QI_ticket q f n :
    QI q f -> lo q <= n < lo q + qcap q ->
    exists st, nth_error (qslots q) (n mod qcap q) = Some st /\
      match st with
      | SVac m => m = n /\ qenq q <= n
      | SPop m v => m = n /\ qdeq q <= n < qenq q /\ nth_error (fitems f) (n - qdeq q) = Some v
      | SBor m => m = n /\ qheld q = Some (n mod qcap q) /\ n + 1 = qdeq q
      end.
  Proof.
    intros [[_ [Hc Hl]] _ [Hn [Hb Hlo]] _ HS] Hw.
    destruct (nth_error (qslots q) (n mod qcap q)) as [st|] eqn:ES.
    2:{ apply nth_error_None in ES. pose proof (Nat.mod_upper_bound n (qcap q)). lia. }
    exists st. split; [reflexivity|]. pose proof (HS _ st ES) as F.
    assert (Hm : forall m, m mod qcap q = n mod qcap q -> lo q <= m < lo q + qcap q -> m = n).
    { intros m E Hm. exact (mod_window (qcap q) (lo q) m n Hc Hm Hw E). }
    assert (Hd : lo q <= qdeq q) by (unfold lo; lia).
    destruct st as [m|m v|m].
    - destruct F as [F1 F2]. assert (m = n) by (apply Hm; [exact F1|lia]). subst m. split; [reflexivity|lia].
    - destruct F as [F1 [F2 F3]]. assert (m = n) by (apply Hm; [exact F1|lia]). subst m. auto.
    - destruct F as [F1 [F2 F3]]. assert (m = n) by (apply Hm; [exact F1|unfold lo; rewrite F2; lia]). subst m. auto.
  Qed.

  Lemma QI_new cap : cap >= 1 -> QI (queue_new cap) (fifo_new cap).
  Proof.
    intros H. split; cbn.
    - rewrite map_length, seqn_length. auto.
    - reflexivity.
    - unfold lo; cbn. lia.
    - split; [split; [discriminate|congruence]|discriminate].
    - intros i st E. rewrite nth_error_map, nth_error_seqn in E. destruct (Nat.ltb_spec i cap) as [L|L]; [|discriminate].
      injection E as <-. unfold lo; cbn. split; [apply Nat.mod_small; lia|lia].
  Qed.

  Lemma push_refines q f v :
    QI q f -> snd (q_step q (QPush v)) = snd (fifo_step f (QPush v)) /\
              QI (fst (q_step q (QPush v))) (fst (fifo_step f (QPush v))).
  Proof.
    intros HQ. pose proof (QI_outstanding q f HQ) as HL.
    pose proof HQ as [[Hc [Hc1 Hl]] Hcl [Hn [Hb Hlo]] [Hh1 Hh2] HS]. cbn [q_step fifo_step]. unfold q_push.
    rewrite Hcl. destruct (fclosed f) eqn:EC; [split; [reflexivity|exact HQ]|].
    rewrite HL, <- Hc. destruct (Nat.ltb_spec (qenq q - lo q) (qcap q)) as [L|L].
    - (* room: the slot of ticket qenq is vacant *)
      destruct (QI_ticket q f (qenq q) HQ ltac:(lia)) as (st & ES & F). rewrite ES.
      destruct st as [n|n w|n]; [|lia|lia]. destruct F as [-> _]. rewrite Nat.eqb_refl.
      set (i := qenq q mod qcap q) in *. assert (Li : i < length (qslots q)) by (apply nth_error_Some; congruence).
      cbn [fst snd]. split; [reflexivity|].
      split; cbn [qcap qclosed qenq qdeq qslots qheld fcap fclosed fitems fheld]; change (lo _) with (lo q).
      + rewrite lupd_length. auto.
      + reflexivity.
      + rewrite app_length. cbn [length]. lia.
      + split; [exact Hh1|]. intros j Ej. destruct (Hh2 j Ej) as [A B]. split; [exact A|].
        rewrite nth_error_lupd_ne; [exact B|]. intros <-. rewrite ES in B. discriminate.
      + intros j st Ej. apply nth_error_lupd_inv in Ej. destruct Ej as [[-> ->]|[NE Ej]].
        * split; [reflexivity|]. split; [lia|]. rewrite nth_error_app2 by lia.
          replace (qenq q - qdeq q - length (fitems f)) with 0 by lia. reflexivity.
        * pose proof (HS j st Ej) as G. destruct st as [m|m w|m]; [| |exact G].
          -- destruct G as [G1 G2]. split; [exact G1|].
             assert (m <> qenq q) by (intros ->; apply NE; symmetry; exact G1). lia.
          -- destruct G as [G1 [G2 G3]]. split; [exact G1|]. split; [lia|]. apply nth_error_app_stable. exact G3.
    - (* full: the slot still belongs to ticket lo q, one lap behind *)
      destruct (QI_ticket q f (lo q) HQ ltac:(lia)) as (st & ES & F).
      replace (qenq q mod qcap q) with (lo q mod qcap q) by (rewrite <- (mod_lap (qcap q) (lo q) Hc1); f_equal; lia).
      rewrite ES. destruct st as [n|n w|n]; [|split; [reflexivity|exact HQ]..].
      destruct F as [-> _]. destruct (Nat.eqb_spec (lo q) (qenq q)); [lia|]. split; [reflexivity|exact HQ].
  Qed.

  Lemma pophold_refines q f :
    QI q f -> snd (q_step q QPopHold) = snd (fifo_step f QPopHold) /\
              QI (fst (q_step q QPopHold)) (fst (fifo_step f QPopHold)).
  Proof.
    intros HQ. pose proof HQ as [[Hc [Hc1 Hl]] Hcl [Hn [Hb Hlo]] [Hh1 Hh2] HS].
    cbn [q_step fifo_step]. unfold q_pop. rewrite (held_eq q f HQ).
    destruct (qheld q) as [j|] eqn:EQ; [split; [reflexivity|exact HQ]|].
    assert (Elo : lo q = qdeq q) by (unfold lo; rewrite EQ; lia).
    destruct (QI_ticket q f (qdeq q) HQ ltac:(lia)) as (st & ES & F). rewrite ES.
    set (i := qdeq q mod qcap q) in *. assert (Li : i < length (qslots q)) by (apply nth_error_Some; congruence).
    destruct st as [n|n w|n].
    - (* vacant slot at the dequeue position: the queue is empty *)
      assert (EE : qenq q = qdeq q) by lia.
      assert (EI : fitems f = []) by (destruct (fitems f); [reflexivity|cbn in Hn; lia]).
      rewrite EI, EE, Nat.eqb_refl, andb_true_r, Hcl. split; [reflexivity|exact HQ].
    - destruct F as [-> [F2 F3]]. rewrite Nat.eqb_refl. rewrite Nat.sub_diag in F3.
      destruct (fitems f) as [|x r] eqn:EI; [discriminate|]. injection F3 as ->.
      cbn [fst snd]. split; [reflexivity|].
      split; cbn [qcap qclosed qenq qdeq qslots qheld fcap fclosed fitems fheld].
      + rewrite lupd_length. auto.
      + exact Hcl.
      + unfold lo; cbn [qheld qdeq]. cbn [length] in Hn. lia.
      + split; [split; [discriminate|reflexivity]|].
        intros j Ej. injection Ej as <-. split; [lia|]. rewrite nth_error_lupd_eq by exact Li.
        f_equal. f_equal. lia.
      + intros j st Ej. unfold lo; cbn [qheld qdeq]. rewrite Elo in *.
        apply nth_error_lupd_inv in Ej. destruct Ej as [[-> ->]|[NE Ej]]; [split; [reflexivity|split; [reflexivity|lia]]|].
        pose proof (HS j st Ej) as G. destruct st as [m|m w2|m].
        * destruct G as [G1 G2]. split; [exact G1|lia].
        * destruct G as [G1 [G2 G3]]. split; [exact G1|].
          assert (m <> qdeq q) by (intros ->; apply NE; symmetry; exact G1).
          split; [lia|]. replace (m - qdeq q) with (S (m - S (qdeq q))) in G3 by lia. exact G3.
        * destruct G as [_ [G _]]. congruence.
    - destruct F as [_ [F _]]. congruence.
  Qed.

  Lemma release_refines q f :
    QI q f -> snd (q_step q QRelease) = snd (fifo_step f QRelease) /\
              QI (fst (q_step q QRelease)) (fst (fifo_step f QRelease)).
  Proof.
    intros HQ. pose proof HQ as [[Hc [Hc1 Hl]] Hcl [Hn [Hb Hlo]] [Hh1 Hh2] HS].
    cbn [q_step fifo_step]. unfold q_release. pose proof (held_eq q f HQ) as EH.
    destruct (qheld q) as [i|] eqn:EQ; rewrite EH.
    2:{ split; [reflexivity|]. destruct f as [fc fcl fi fh]. cbn in EH |- *. subst fh. exact HQ. }
    destruct (Hh2 i eq_refl) as [D1 ES]. rewrite ES. cbn [fst snd]. split; [reflexivity|].
    assert (Li : i < length (qslots q)) by (apply nth_error_Some; congruence).
    pose proof (HS i _ ES) as [F1 _]. unfold lo in *. rewrite EQ in *.
    split; cbn [qcap qclosed qenq qdeq qslots qheld fcap fclosed fitems fheld].
    - rewrite lupd_length. auto.
    - exact Hcl.
    - unfold lo; cbn [qheld qdeq]. lia.
    - split; [split; [discriminate|intros X; destruct (X eq_refl)]|discriminate].
    - intros j st Ej. unfold lo; cbn [qheld qdeq]. apply nth_error_lupd_inv in Ej. destruct Ej as [[-> ->]|[NE Ej]].
      + split; [rewrite mod_lap by exact Hc1; exact F1|lia].
      + pose proof (HS j st Ej) as G. destruct st as [m|m w|m].
        * destruct G as [G1 G2]. split; [exact G1|lia].
        * exact G.
        * destruct G as [_ [G _]]. congruence.
  Qed.

  Lemma step_refines q f o :
    QI q f -> snd (q_step q o) = snd (fifo_step f o) /\ QI (fst (q_step q o)) (fst (fifo_step f o)).
  Proof.
    intros HQ. destruct o.
    - apply push_refines; auto.
    - (* pop = pop-hold followed at once by release *)
      destruct (pophold_refines q f HQ) as [E1 Q1].
      cbn [q_step fifo_step] in *.
      destruct (q_pop q) as [q1 r] eqn:EP. cbn [fst snd] in *.
      destruct (fheld f) eqn:EH.
      { cbn [snd fst] in *. injection E1 as ->. cbn. split; auto. }
      destruct (fitems f) as [|x rest] eqn:EI.
      { cbn [snd fst] in *. injection E1 as ->. destruct (fclosed f); cbn; split; auto. }
      cbn [snd fst] in *. injection E1 as ->. cbn [fst snd].
      destruct (release_refines _ _ Q1) as [_ Q2]. cbn [q_step fifo_step fst snd] in Q2.
      destruct (q_release q1) as [q2 bb]. cbn [fst] in *. split; [reflexivity|exact Q2].
    - apply pophold_refines; auto.
    - apply release_refines; auto.
    - cbn. split; auto. destruct HQ as [A B C D E]. split; cbn; auto.
    - cbn. split; [|exact HQ]. destruct HQ as [_ _ [Hn _] _ _]. unfold q_len. f_equal. lia.
    - cbn. split; [|exact HQ]. destruct HQ as [_ Hcl _ _ _]. rewrite Hcl. reflexivity.
  Qed.

  Theorem queue_refines_gen ops : forall q f, QI q f -> q_run q ops = fifo_run f ops.
  Proof.
    induction ops as [|o r IH]; intros q f HQ; cbn [q_run fifo_run]; auto.
    destruct (step_refines q f o HQ) as [E1 E2].
    destruct (q_step q o) as [q' x], (fifo_step f o) as [f' y]. cbn [fst snd] in *. subst y. f_equal. apply IH; auto.
  Qed.

  Theorem queue_refines cap ops : cap >= 1 ->
    q_run (@queue_new V cap) ops = fifo_run (@fifo_new V cap) ops.
  Proof. intros H. apply queue_refines_gen, QI_new; auto. Qed.

End QueueProofs.
