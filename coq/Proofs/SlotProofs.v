(* util/slot.rs: every reachable state of the (finite) model is fine - no access after free, no double free,
   no double drop, no read of a value that is not there, and once both handles are gone the allocation is freed
   and the value, if written, was moved out by try_read or dropped.  Proved by computing the reachable states
   and checking closure under every step. *)
Require Import NX.Base.Prelude NX.Model.Slot.

Lemma vstat_eqb_eq a b : vstat_eqb a b = true -> a = b.
Proof. destruct a, b; cbn; congruence. Qed.
Lemma swpc_eqb_eq a b : swpc_eqb a b = true -> a = b.
Proof. destruct a, b; cbn; congruence. Qed.
Lemma srpc_eqb_eq a b : srpc_eqb a b = true -> a = b.
Proof. destruct a, b; cbn; try congruence. intros H. apply Bool.eqb_prop in H. congruence. Qed.

Lemma sstate_eqb_eq a b : sstate_eqb a b = true -> a = b.
Proof.
  unfold sstate_eqb. rewrite !andb_true_iff. intros [[[[[[H1 H2] H3] H4] H5] H6] H7].
  destruct a, b; cbn in *. apply Nat.eqb_eq in H1. apply vstat_eqb_eq in H2. apply Bool.eqb_prop in H3.
  apply swpc_eqb_eq in H4. apply srpc_eqb_eq in H5. apply Bool.eqb_prop in H6. apply Bool.eqb_prop in H7. congruence.
Qed.

Lemma smem_In s l : os_mem s l = true -> In s l.
Proof.
  unfold os_mem. rewrite existsb_exists. intros [x [Hx E]]. apply sstate_eqb_eq in E. subst. exact Hx.
Qed.

Lemma sstate_eqb_refl a : sstate_eqb a a = true.
Proof.
  unfold sstate_eqb. destruct a as [st v b w r g bad]; cbn.
  rewrite Nat.eqb_refl, !Bool.eqb_reflx.
  destruct v, w, r; cbn; try reflexivity; destruct populated; reflexivity.
Qed.

Lemma In_smem s l : In s l -> os_mem s l = true.
Proof. intros H. unfold os_mem. apply existsb_exists. exists s. split; auto. apply sstate_eqb_refl. Qed.

Lemma step_in_succs K s l s' : os_step K s l = Some s' -> In s' (os_succs K s).
Proof.
  intros H. unfold os_succs. apply in_flat_map. exists l. split; [destruct l; cbn; tauto|]. rewrite H. left; reflexivity.
Qed.

Lemma run_in_reach K R : os_closed K R = true -> forall ls s, In s R -> In (os_run K s ls) R.
Proof.
  intros Hclosed. induction ls as [|l ls IH]; intros s Hs; cbn [os_run]; auto.
  destruct (os_step K s l) as [s'|] eqn:E; [|apply IH; auto].
  apply IH. unfold os_closed in Hclosed. rewrite forallb_forall in Hclosed.
  specialize (Hclosed s Hs). rewrite forallb_forall in Hclosed.
  apply smem_In. apply Hclosed. eapply step_in_succs; eauto.
Qed.

Theorem slot_check_sound K R :
  os_mem os_init R && os_closed K R && forallb os_ok R = true ->
  forall ls, os_ok (os_run K os_init ls) = true.
Proof.
  intros H ls. rewrite !andb_true_iff, forallb_forall in H. destruct H as [[Hinit Hclosed] Hok].
  apply Hok, (run_in_reach _ _ Hclosed), smem_In, Hinit.
Qed.

Theorem slot_always_ok : forall ls, os_ok (os_run slot_fixed os_init ls) = true.
Proof. apply (slot_check_sound slot_fixed (os_reach slot_fixed)). vm_compute. reflexivity. Qed.

Lemma os_ok_spec s :
  os_ok s = true ->
  sbad s = false /\ (sgot s = true -> sval s = VMoved) /\
  (swp s = WDone -> srp s = RDone -> sbox s = false /\ sval s <> VInit).
Proof.
  unfold os_ok. rewrite !andb_true_iff, negb_true_iff. intros [[A B] C]. split; [exact A|]. split.
  - intros G. rewrite G in B. destruct (sval s); try discriminate. reflexivity.
  - intros Hw Hr. rewrite Hw, Hr, andb_true_iff, negb_true_iff in C. destruct C as [C1 C2].
    split; [exact C1|]. intros E. rewrite E in C2. discriminate.
Qed.

Theorem slot_no_misuse ls : sbad (os_run slot_fixed os_init ls) = false.
Proof. exact (proj1 (os_ok_spec _ (slot_always_ok ls))). Qed.

Theorem slot_released_exactly_once ls :
  let s := os_run slot_fixed os_init ls in
  swp s = WDone -> srp s = RDone -> sbox s = false /\ sval s <> VInit.
Proof. exact (proj2 (proj2 (os_ok_spec _ (slot_always_ok ls)))). Qed.

Theorem slot_value_read_at_most_once ls :
  let s := os_run slot_fixed os_init ls in sgot s = true -> sval s = VMoved.
Proof. exact (proj1 (proj2 (os_ok_spec _ (slot_always_ok ls)))). Qed.

(* the write mask without CLOSED (write sets POPULATED only): the value is leaked when the reader goes away without reading *)
Definition slot_leaky : slot_consts := {| k_closed := 1; k_populated := 2; k_wmask := 2 |}.
Lemma slot_leaky_refuted :
  let s := os_run slot_leaky os_init [SLWrite; SLW; SLRDrop; SLR] in
  swp s = WDone /\ srp s = RDone /\ sbox s = true /\ sval s = VInit.
Proof. vm_compute. auto. Qed.
