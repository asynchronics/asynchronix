(* Confluence of the message pool (Model/Conf.v): every complete schedule of a step performs the same multiset
   of handler invocations, and no schedule can run longer or get stuck. *)
Require Import NX.Base.Prelude NX.Base.ListX NX.Model.Sim NX.Model.Conf.

Section Pool.
  Variable M : Type.
  Variable react : M -> list M.
  Notation cruns := (cruns react).
  Notation pruns := (pruns react).

  Lemma runs_perm P L : cruns P L -> forall P', Permutation P P' -> cruns P' L.
  Proof.
    intros H. destruct H as [|P m rest L Hp Hr]; intros P' HP.
    - apply Permutation_nil in HP. subst. constructor.
    - econstructor; [|exact Hr]. rewrite <- HP. exact Hp.
  Qed.

  (* a message of the pool is invoked by every complete run, and its invocation can be moved first *)
  Lemma runs_extract Q L :
    cruns Q L -> forall m rest, Permutation Q (m :: rest) ->
    exists L', Permutation L (m :: L') /\ cruns (react m ++ rest) L'.
  Proof.
    induction 1 as [|P m' rest' L0 Hp Hr IH]; intros m rest HQ.
    - apply Permutation_nil in HQ. discriminate.
    - assert (H2 : Permutation (m :: rest) (m' :: rest')) by (rewrite <- HQ; exact Hp).
      destruct (perm_cons_split _ _ _ _ H2) as [[-> Hrr] | [r2 [Ha Hb]]].
      + exists L0. split; [reflexivity|].
        eapply runs_perm; [exact Hr|]. apply Permutation_app_head. symmetry. exact Hrr.
      + destruct (IH m (react m' ++ r2)) as [L0' [HL Hr']].
        { rewrite Hb. symmetry. apply Permutation_middle. }
        exists (m' :: L0'). split.
        * rewrite HL. apply perm_swap.
        * econstructor.
          -- rewrite Ha. symmetry. apply Permutation_middle.
          -- eapply runs_perm; [exact Hr'|].
             rewrite !app_assoc. apply Permutation_app_tail. apply Permutation_app_comm.
  Qed.

  (* the same multiset of invocations, whatever the schedule *)
  Theorem conf_unique P L1 :
    cruns P L1 -> forall P' L2, Permutation P P' -> cruns P' L2 -> Permutation L1 L2.
  Proof.
    induction 1 as [|P m rest L Hp Hr IH]; intros P' L2 HP H2.
    - apply Permutation_nil in HP. subst. inversion H2 as [|? ? ? ? Hq]; subst; [reflexivity|].
      apply Permutation_nil in Hq. discriminate.
    - assert (Hq : Permutation P' (m :: rest)) by (rewrite <- HP; exact Hp).
      destruct (runs_extract _ _ H2 _ _ Hq) as [L2' [HL Hr2]].
      rewrite HL. constructor. exact (IH _ _ (Permutation_refl _) Hr2).
  Qed.

  (* no schedule gets stuck or diverges: any partial schedule can be completed, to the same multiset *)
  Theorem conf_complete P L2 Q :
    pruns P L2 Q -> forall L1, cruns P L1 -> exists L3, cruns Q L3 /\ Permutation L1 (L2 ++ L3).
  Proof.
    induction 1 as [P Q HP | P m rest L Q Hp Hr IH]; intros L1 H1.
    - exists L1. split; [exact (runs_perm _ _ H1 _ HP) | reflexivity].
    - destruct (runs_extract _ _ H1 _ _ Hp) as [L1' [HL Hr1]].
      destruct (IH _ Hr1) as [L3 [HQ HL3]].
      exists L3. split; [exact HQ|]. rewrite HL. cbn [app]. constructor. exact HL3.
  Qed.

  Lemma pruns_perm_l P L Q : pruns P L Q -> forall P', Permutation P P' -> pruns P' L Q.
  Proof.
    intros H. destruct H as [P Q HP | P m rest L Q Hp Hr]; intros P' HP'.
    - constructor. rewrite <- HP'. exact HP.
    - econstructor; [|exact Hr]. rewrite <- HP'. exact Hp.
  Qed.

  Lemma pruns_nil_runs P L : pruns P L [] -> cruns P L.
  Proof.
    remember [] as Q eqn:EQ. induction 1 as [P Q HP | P m rest L Q Hp Hr IH]; subst.
    - apply Permutation_sym, Permutation_nil in HP. subst. constructor.
    - econstructor; [exact Hp | apply IH; reflexivity].
  Qed.

  Corollary conf_bounded P L1 L2 Q : cruns P L1 -> pruns P L2 Q -> length L2 <= length L1.
  Proof.
    intros H1 H2. destruct (conf_complete _ _ _ H2 _ H1) as [L3 [_ HL]].
    rewrite (Permutation_length HL), app_length. lia.
  Qed.

  (* whatever is derived from each invocation by a function of its content (sink outputs, replies)
     is the same multiset too *)
  Corollary conf_outputs {O} (out : M -> list O) P L1 L2 :
    cruns P L1 -> cruns P L2 -> Permutation (flat_map out L1) (flat_map out L2).
  Proof.
    intros H1 H2. apply Permutation_flat_map. exact (conf_unique _ _ H1 _ _ (Permutation_refl _) H2).
  Qed.

  Lemma pool_exec_runs fuel : forall P ch L, pool_exec react fuel P ch = Some L -> cruns P L.
  Proof.
    induction fuel as [|f IH]; intros P ch L H; cbn [pool_exec] in H; [discriminate|].
    destruct P as [|x r] eqn:EP.
    - injection H as <-. constructor.
    - rewrite <- EP in *.
      destruct (nth_error P (Nat.modulo (hd 0 ch) (length P))) as [m|] eqn:En; [|discriminate].
      destruct (pool_exec react f (react m ++ ldel P (Nat.modulo (hd 0 ch) (length P))) (tl ch)) as [L'|] eqn:Er;
        [|discriminate].
      injection H as <-. econstructor; [exact (ldel_perm _ _ _ En) | exact (IH _ _ _ Er)].
  Qed.

  Theorem pool_exec_confluent f1 f2 P ch1 ch2 L1 L2 :
    pool_exec react f1 P ch1 = Some L1 -> pool_exec react f2 P ch2 = Some L2 -> Permutation L1 L2.
  Proof.
    intros H1 H2. eapply conf_unique; [eapply pool_exec_runs; exact H1 | reflexivity | eapply pool_exec_runs; exact H2].
  Qed.
End Pool.

(* Non-vacuity: a bench with fan-out, a filter and a query; two different schedules, same multiset. *)
Definition conf_bench : bench :=
  {| bmodels :=
       [ {| mcap := 1; mplace := Added; mparent := None; mnamed := true; minit := [];
            mhandlers := [[OSend 0 EIn; OQuery 0 (EInPlus 1); OSend 0 (EInPlus 2)]];
            mrepliers := [];
            mouts := [[ {| ckeep := KAll; cadd := 0; ctgt := TgtModel 1 0 |};
                        {| ckeep := KEven; cadd := 1000; ctgt := TgtSink 0 |} ]];
            mreqs := [[ {| qkeep := KAll; qadd := 0; qmodel := 1; qrep := 0; qradd := 5 |} ]] |};
         {| mcap := 1; mplace := Added; mparent := None; mnamed := true; minit := [];
            mhandlers := [[OSend 0 EIn]];
            mrepliers := [([OSend 0 (EConst 7)], 0%Z)];
            mouts := [[ {| ckeep := KAll; cadd := 0; ctgt := TgtSink 0 |} ]];
            mreqs := [] |} ];
     bsinks := [SpecBuf 64]; bsources := []; bclock := []; btol := None; bt0 := 0;
     bugF1 := false; bugF2 := false; bugF3 := false; bugF4 := false |}.

Example conf_nonvacuous :
  bench_plain conf_bench = true /\
  exists L1 L2,
    pool_exec (bench_react conf_bench) 100 [CMHandler 0 0 4; CMHandler 0 0 5] [] = Some L1 /\
    pool_exec (bench_react conf_bench) 100 [CMHandler 0 0 4; CMHandler 0 0 5] [1; 3; 0; 2; 5; 1; 1] = Some L2 /\
    L1 <> L2 /\ length L1 = 16.
Proof.
  split; [vm_compute; reflexivity|].
  eexists. eexists. split; [vm_compute; reflexivity|]. split; [vm_compute; reflexivity|].
  split; [intro H; discriminate H | reflexivity].
Qed.
