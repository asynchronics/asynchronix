(* Cancellation, same-key order and periodic re-insertion: lemmas about the
   critical section of a step and the handler-side cancellation check. *)
Require Import NX.Base.Prelude NX.Base.ListX NX.Model.PQ NX.Model.Sim.
Require Import NX.Proofs.PQProofs NX.Proofs.SimQueue.

Definition live (s : state) (a : action) : Prop := key_cancelled s (akey a) = false.

Lemma peek_next_head fuel : forall s q bound k q',
  peek_next fuel s q bound = (Some k, q') ->
  exists a, pq_peek q' = Some (k, a) /\ live s a /\ le_bound (fst k) bound = true.
Proof.
  intros s q bound k q' H. apply (peek_next_steps s bound (fun _ _ => True)) in H; auto. apply H.
Qed.

(* each round pulls the head, which peek_next_key found live, and what a periodic action leaves behind carries
   the same op *)
Lemma crit_fired_live fuel : forall s q bound cur group groups q' gs,
  crit fuel s q bound cur group groups = Some (q', gs) ->
  (exists a0, pq_peek q = Some (cur, a0) /\ live s a0) ->
  forall o, In o (concat gs) ->
    In o (concat groups) \/ In o group \/
    exists y, In y (items q) /\ live s (ival y) /\ o = aop (ival y).
Proof.
  induction fuel as [|f IH]; intros s q bound cur group groups q' gs H [a0 [HP HL]] o Ho; [discriminate|].
  apply crit_unfold in H. destruct H as (k & a & q1 & nk & q2 & EPN & EN & C). cbv zeta in C.
  apply pull_next_spec in EPN. destruct EPN as [EPK Hq1]. rewrite HP in EPK. injection EPK as <- <-.
  destruct (pq_peek_spec _ _ _ _ HP) as (m & Hm & _ & Ea & _).
  (* what the rest of the loop says of o, in terms of the queue q2 it starts from *)
  assert (U : In o (concat groups) \/ In o (group ++ [aop a0]) \/
              exists y, In y (items q2) /\ live s (ival y) /\ o = aop (ival y)).
  { assert (HEAD : forall k', nk = Some k' -> exists a1, pq_peek q2 = Some (k', a1) /\ live s a1).
    { intros k' ->. destruct (peek_next_head _ _ _ _ _ _ EN) as (a1 & H1 & H2 & _). eauto. }
    destruct C as [[-> H]|[(k' & -> & _ & _ & H)|[_ E]]].
    - exact (IH _ _ _ _ _ _ _ _ H (HEAD _ eq_refl) o Ho).
    - destruct (IH _ _ _ _ _ _ _ _ H (HEAD _ eq_refl) o Ho) as [X|[[]|X]]; [|auto].
      rewrite concat_snoc in X. apply in_app_or in X. tauto.
    - injection E as _ ->. rewrite concat_snoc in Ho. apply in_app_or in Ho. tauto. }
  destruct U as [X|[X|(y & Hy & Ly & ->)]]; [auto| |right; right].
  - (* the op just collected is that of the pulled head m *)
    apply in_app_or in X. destruct X as [X|[<-|[]]]; [auto|]. right; right. exists m. rewrite Ea. auto.
  - (* an item left in q2 was in q, or is the next occurrence of a0 *)
    destruct (Hq1 y (peek_next_sub _ _ _ _ _ _ EN y Hy)) as [Hy'|(p & _ & _ & EV)]; [eauto|].
    exists m. rewrite EV, Ea. auto.
Qed.

Lemma crit_live fuel : forall s q bound cur group groups q' gs,
  crit fuel s q bound cur group groups = Some (q', gs) ->
  (exists a0, pq_peek q = Some (cur, a0) /\ live s a0) ->
  forall o, In o (concat gs) ->
    In o (concat groups) \/ In o group \/ exists a, o = aop a /\ live s a.
Proof.
  intros s q bound cur group groups q' gs H HP o Ho.
  destruct (crit_fired_live _ _ _ _ _ _ _ _ _ H HP o Ho) as [X|[X|(y & _ & L & E)]]; eauto.
Qed.

(* The handler-side check: a keyed event dequeued after its key was cancelled
   runs nothing and logs nothing (the message is consumed). *)
Lemma step_start_cancelled b s t x m sp g rest key :
  nth_error (tasks s) t = Some x -> tk x = TKModel m -> tfr x = None -> tdone x = false ->
  tinit x = false -> nth_error (bmodels b) m = Some sp ->
  nth_error (boxes s) m = Some (g :: rest) -> mkd g = KEvent key -> key_cancelled s key = true ->
  exists s', step_start b s t = Some s' /\ log s' = log s /\
             nth_error (tasks s') t = Some (tset_tfr x (Some (empty_frame [] (mval g) None))).
Proof.
  intros H1 H2 H3 H4 H5 H6 H7 H8 H9. unfold step_start.
  rewrite H1, H2, H3, H4, H6, H5, H7, H8, H9.
  eexists. split; [reflexivity|]. split; [reflexivity|].
  cbn. apply nth_error_lupd_eq. apply nth_error_Some. congruence.
Qed.

(* A periodic action is re-inserted with the pulled key's time plus its period
   (never the clock), same origin, same action, next epoch. *)
Lemma pull_next_periodic q k a q1 p :
  pq_pull q = (Some (k, a), q1) -> aperiod a = Some p ->
  pull_next q = Some (k, a, pq_insert q1 ((fst k + p)%Z, snd k) a).
Proof. intros H E. unfold pull_next. rewrite H, E. reflexivity. Qed.

Lemma pull_next_oneshot q k a q1 :
  pq_pull q = (Some (k, a), q1) -> aperiod a = None -> pull_next q = Some (k, a, q1).
Proof. intros H E. unfold pull_next. rewrite H, E. reflexivity. Qed.

Fixpoint iter_add (n : nat) (t p : Z) : Z := match n with O => t | S n' => (iter_add n' t p + p)%Z end.
Lemma iter_add_closed n t p : iter_add n t p = (t + Z.of_nat n * p)%Z.
Proof. induction n as [|n IH]; cbn [iter_add]; [lia|]. rewrite IH. lia. Qed.

(* A task executes its script in order: nothing of the next op starts while a
   delivery of the current one is outstanding. *)
Lemma step_op_blocked b s t x f d ds :
  nth_error (tasks s) t = Some x -> tfr x = Some f -> fpend f = d :: ds -> step_op b s t = None.
Proof. intros H1 H2 H3. unfold step_op. rewrite H1, H2, H3. reflexivity. Qed.

(* Mailboxes are FIFO: a delivery appends at the back, a start takes the head. *)
Lemma deliver_appends b s t i x f m g thr sp q s' :
  nth_error (tasks s) t = Some x -> tfr x = Some f ->
  nth_error (fpend f) i = Some {| dtgt := DModel m g; dthrow := thr |} ->
  nth_error (bmodels b) m = Some sp -> mplace sp <> Dropped -> nth_error (boxes s) m = Some q ->
  step_deliver b s t i = Some s' ->
  nth_error (boxes s') m = Some (q ++ [g]) /\ length q < mcap sp /\ inflight s' = (inflight s + 1)%Z.
Proof.
  intros H1 H2 H3 H4 H5 H6. unfold step_deliver. rewrite H1, H2, H3. cbn [dtgt]. rewrite H4, H6.
  destruct (mplace sp) eqn:EPl; try congruence;
    (destruct (Nat.ltb_spec (length q) (mcap sp)) as [L|L]; [|discriminate];
     intros H; injection H as <-; cbn; split; [apply nth_error_lupd_eq; apply nth_error_Some; congruence|auto]).
Qed.
