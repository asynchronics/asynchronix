(* Meaning of the specification Model/IPQSpec.v: which entry a pull returns and which entry
   the key of the n-th insertion designates. *)
Require Import NX.Base.Prelude NX.Model.PQ NX.Model.IPQ NX.Model.IPQSpec.
Require Import NX.Proofs.PQProofs.

Section PQFacts.
  Variable V : Type.

  Lemma a_extract_cases (a : pq V) n :
    (exists x, In x (items a) /\ iepoch x = N.of_nat n /\
               a_extract a n = (Some (PQ.ikey x, ival x),
                                {| items := remove_epoch (iepoch x) (items a); next_epoch := next_epoch a |})) \/
    ((forall y, In y (items a) -> iepoch y <> N.of_nat n) /\ a_extract a n = (None, a)).
  Proof.
    unfold a_extract. destruct (find _ (items a)) as [x|] eqn:Ef.
    - left. apply find_some in Ef. destruct Ef as [H1 H2]. apply N.eqb_eq in H2. eauto.
    - right. split; [|reflexivity]. intros y Hy. apply N.eqb_neq. exact (find_none _ _ Ef y Hy).
  Qed.
End PQFacts.

Section SpecMeaning.
  Variable V : Type.

  Definition ins_of (o : ipq_op V) : list (key * V) :=
    match o with IInsert k v => [(k, v)] | _ => [] end.

  Fixpoint inserts (ops : list (ipq_op V)) : list (key * V) :=
    match ops with [] => [] | o :: r => ins_of o ++ inserts r end.

  Fixpoint a_exec (a : pq V) (ops : list (ipq_op V)) : pq V :=
    match ops with [] => a | o :: r => a_exec (fst (a_step a o)) r end.

  (* every queued entry is the one created by the insertion whose number is its epoch *)
  Record A (a : pq V) (ins : list (key * V)) : Prop := {
    A_next : next_epoch a = N.of_nat (length ins);
    A_origin : forall x, In x (items a) -> nth_error ins (N.to_nat (iepoch x)) = Some (PQ.ikey x, ival x);
    A_sorted : epochs_sorted V (items a);
    A_bound : forall x, In x (items a) -> (iepoch x < next_epoch a)%N
  }.

  Lemma A_empty : A pq_empty [].
  Proof.
    constructor; [reflexivity|intros x []|exact (proj1 (pq_ok_empty V))|intros x []].
  Qed.

  Lemma A_remove a ins e : A a ins -> (exists x, In x (items a) /\ iepoch x = e) ->
    A {| items := remove_epoch e (items a); next_epoch := next_epoch a |} ins.
  Proof.
    intros [An Ao As Ab] (x & Hx & <-).
    destruct (pq_ok_remove V a x (conj As Ab) Hx) as [Hs Hb]. constructor; [exact An| |exact Hs|exact Hb].
    intros y Hy. apply Ao. eapply in_remove_epoch; eauto.
  Qed.

  Lemma A_step a ins o : A a ins -> A (fst (a_step a o)) (ins ++ ins_of o).
  Proof.
    intros HA. destruct o as [k v| | | |n|]; cbn [a_step ins_of fst]; rewrite ?app_nil_r; try exact HA.
    - destruct HA as [An Ao As Ab].
      destruct (pq_ok_insert V a k v (conj As Ab)) as [Hs Hb]. constructor; [| |exact Hs|exact Hb].
      + cbn [pq_insert next_epoch]. rewrite An, app_length. cbn [length]. lia.
      + intros x. cbn [pq_insert items]. rewrite in_app_iff. cbn [In]. intros [Hx|[<-|[]]].
        * pose proof (Ab x Hx). rewrite nth_error_app1; [apply Ao; exact Hx|]. lia.
        * cbn [iepoch PQ.ikey ival]. rewrite An, Nnat.Nat2N.id, nth_error_app2, Nat.sub_diag by lia. reflexivity.
    - unfold pq_pull. destruct (pq_peek_item a) as [m|] eqn:Em; cbn [fst]; [|exact HA].
      apply A_remove; [exact HA|]. exists m. split; [|reflexivity].
      apply peek_item_spec in Em. tauto.
    - destruct (a_extract_cases V a n) as [(x & Hx & Ex & ->)|[_ ->]]; cbn [fst]; [|exact HA].
      apply A_remove; [exact HA|]. eauto.
  Qed.

  Lemma A_exec ops : forall a ins, A a ins -> A (a_exec a ops) (ins ++ inserts ops).
  Proof.
    induction ops as [|o ops IH]; intros a ins HA; cbn [a_exec inserts]; [rewrite app_nil_r; exact HA|].
    rewrite app_assoc. apply IH. apply A_step. exact HA.
  Qed.

  Theorem A_reachable ops : A (a_exec pq_empty ops) (inserts ops).
  Proof. apply (A_exec ops pq_empty []). exact A_empty. Qed.

  (* The key of the n-th insertion: extraction returns nothing, or exactly the pair that the n-th
     insertion put in - whatever happened in between (including re-use of its storage slot) - and
     removes that entry and no other. *)
  Theorem extract_designates (a : pq V) ins n (r : option (key * V)) (a' : pq V) :
    A a ins -> a_extract a n = (r, a') ->
    (r = None /\ a' = a /\ forall x, In x (items a) -> iepoch x <> N.of_nat n) \/
    (exists k v, r = Some (k, v) /\ nth_error ins n = Some (k, v) /\
                 (forall y, In y (items a') <-> In y (items a) /\ iepoch y <> N.of_nat n) /\
                 next_epoch a' = next_epoch a).
  Proof.
    intros HA. destruct (a_extract_cases V a n) as [(x & Hx & Ee & ->)|[Hnone ->]]; intros H; injection H as <- <-.
    - right. exists (PQ.ikey x), (ival x). split; [reflexivity|]. split.
      + rewrite <- (Nnat.Nat2N.id n), <- Ee. apply (A_origin _ _ HA). exact Hx.
      + split; [|reflexivity]. intros y. cbn [items].
        rewrite (in_remove_epoch_iff V _ x y (A_sorted _ _ HA) Hx), <- Ee. split.
        * intros [Hy Hne]. split; [exact Hy|]. intros Ey. apply Hne.
          exact (sorted_epoch_inj V (items a) y x (A_sorted _ _ HA) Hy Hx Ey).
        * intros [Hy Hne]. split; [exact Hy|]. intros ->. congruence.
    - left. auto.
  Qed.

  (* pull returns an entry with the least key and, among those, the one inserted first (its
     epoch is its insertion number) *)
  Theorem pull_least_first (a : pq V) k v (a' : pq V) :
    pq_pull a = (Some (k, v), a') ->
    exists m, In m (items a) /\ PQ.ikey m = k /\ ival m = v /\
      (forall y, In y (items a) -> key_le k (PQ.ikey y)) /\
      (forall y, In y (items a) -> PQ.ikey y = k -> (iepoch m <= iepoch y)%N) /\
      items a' = remove_epoch (iepoch m) (items a).
  Proof.
    unfold pq_pull. destruct (pq_peek_item a) as [m|] eqn:Em; [|discriminate].
    intros H; injection H as <- <- <-. exists m. destruct (peek_item_min V a m Em) as [Hin Hmin].
    split; [exact Hin|]. split; [reflexivity|]. split; [reflexivity|]. split; [|split; [|reflexivity]].
    - intros y Hy. apply key_not_lt_le. intros K. apply (Hmin y Hy). left. exact K.
    - intros y Hy Ek. destruct (N.le_gt_cases (iepoch m) (iepoch y)) as [L|L]; [exact L|].
      exfalso. apply (Hmin y Hy). right. split; [exact Ek|lia].
  Qed.

  Lemma a_run_snoc ops : forall (a : pq V) o,
    a_run a (ops ++ [o]) = a_run a ops ++ [snd (a_step (a_exec a ops) o)].
  Proof.
    induction ops as [|o' ops IH]; intros a o; cbn [app a_run a_exec].
    - destruct (a_step a o); reflexivity.
    - destruct (a_step a o') as [a1 x1] eqn:E. cbn [fst]. rewrite IH. reflexivity.
  Qed.

  Theorem extract_designates_reachable ops n (r : option (key * V)) (a' : pq V) :
    a_extract (a_exec pq_empty ops) n = (r, a') ->
    (r = None /\ a' = a_exec pq_empty ops /\
     forall x, In x (items (a_exec pq_empty ops)) -> iepoch x <> N.of_nat n) \/
    (exists k v, r = Some (k, v) /\ nth_error (inserts ops) n = Some (k, v) /\
                 (forall y, In y (items a') <-> In y (items (a_exec pq_empty ops)) /\ iepoch y <> N.of_nat n) /\
                 next_epoch a' = next_epoch (a_exec pq_empty ops)).
  Proof. apply extract_designates. apply A_reachable. Qed.
End SpecMeaning.
