(* util/sync_cell.rs (Model/SeqLock.v): an invariant of the writer (winv) and of each reader (rinv) under which
   every value a reader returns is a completed write of the history, never two halves of different writes,
   and a reader returns writes in history order. *)
Require Import NX.Base.Prelude NX.Base.ListX NX.Model.SeqLock.

Definition idx (s : slstate) : nat := length (hist s) - 1.

Definition last_val (s : slstate) : tval := nth (idx s) (hist s) (0%Z, 0%Z).

Definition winv (s : slstate) : Prop :=
  length (hist s) >= 1 /\
  match wpc s with
  | 0 => seq s = 2 * idx s /\ (ma s, mb s) = last_val s
  | 1 => seq s = 2 * idx s /\ (ma s, mb s) = last_val s /\ ws s = seq s
  | 2 | 3 => seq s = 2 * idx s + 1 /\ (ma s, mb s) = last_val s /\ ws s = 2 * idx s
  | 4 => seq s = 2 * idx s + 1 /\ ws s = 2 * idx s /\ exists v rest, wvals s = v :: rest /\ ma s = fst v
  | 5 => seq s = 2 * idx s + 1 /\ ws s = 2 * idx s /\ exists v rest, wvals s = v :: rest /\ ma s = fst v /\ mb s = snd v
  | _ => False
  end.

Fixpoint sorted_desc (l : list nat) : Prop :=
  match l with
  | [] => True
  | x :: r => (match r with [] => True | y :: _ => y <= x end) /\ sorted_desc r
  end.

Definition rinv (s : slstate) (r : reader) : Prop :=
  (forall j v, In (j, v) (rout r) -> nth_error (hist s) j = Some v) /\
  sorted_desc (map fst (rout r)) /\
  (forall j v, In (j, v) (rout r) -> 2 * j <= seq s) /\
  (rpc r <= 4) /\
  (rpc r >= 1 -> rs r = 2 * rj r /\ rs r <= seq s /\
                 (forall j v, In (j, v) (rout r) -> j <= rj r) /\
                 (seq s = rs r ->
                    (rpc r >= 2 -> ra r = fst (last_val s)) /\ (rpc r >= 3 -> rb r = snd (last_val s)) /\
                    rj r = idx s)).

Definition sl_inv (s : slstate) : Prop := winv s /\ forall r, In r (readers s) -> rinv s r.

Lemma even_half n : Nat.even n = true -> n = 2 * (n / 2).
Proof.
  intros H. apply Nat.even_spec in H. destruct H as [k ->].
  rewrite Nat.mul_comm, Nat.div_mul by lia. lia.
Qed.

Lemma sl_init_inv v0 vals n : sl_inv (sl_init v0 vals n).
Proof.
  split.
  - unfold winv, idx, last_val; cbn. split; [lia|]. split; [reflexivity|]. destruct v0; reflexivity.
  - intros r Hr. cbn in Hr. apply in_map_iff in Hr. destruct Hr as [x [<- _]].
    unfold rinv; cbn. repeat split; try lia; try (intros j v []); auto.
Qed.

Lemma nth_app_last {A} (l : list A) x d : nth (length (l ++ [x]) - 1) (l ++ [x]) d = x.
Proof. rewrite app_length; cbn. replace (length l + 1 - 1) with (length l) by lia. rewrite app_nth2 by lia. rewrite Nat.sub_diag. reflexivity. Qed.

Lemma rinv_ext s s' r : seq s' = seq s -> hist s' = hist s -> rinv s r -> rinv s' r.
Proof. unfold rinv, last_val, idx. intros -> ->. exact (fun H => H). Qed.

(* once the sequence number has moved past the one a reader loaded, nothing is claimed about the
   halves that reader holds *)
Lemma rinv_bump s s' r d : seq s < seq s' -> hist s' = hist s ++ d -> rinv s r -> rinv s' r.
Proof.
  intros Hs Hh (A & B & C & D & E). split; [|split; [exact B|split; [|split; [exact D|]]]].
  - intros j v Hj. rewrite Hh. apply nth_error_app_stable, (A j v Hj).
  - intros j v Hj. specialize (C j v Hj). lia.
  - intros P. destruct (E P) as (E1 & E2 & E3 & _).
    split; [exact E1|]. split; [lia|]. split; [exact E3|]. intros G. exfalso. lia.
Qed.

Lemma writer_step_inv s s' : sl_inv s -> writer_step s = Some s' -> sl_inv s'.
Proof.
  intros [[HL W] R]. unfold writer_step. destruct (wvals s) as [|v rest] eqn:EV; [discriminate|].
  destruct (wpc s) as [|[|[|[|[|[|n]]]]]] eqn:EP; try discriminate; intros H; injection H as <-;
    (split; [unfold winv, last_val, idx in *; cbn [seq ma mb wpc ws wvals hist] in *|intros r Hr; specialize (R r Hr)]).
  - (* pc 0: load seq *) tauto.
  - exact (rinv_ext s _ r eq_refl eq_refl R).
  - (* pc 1: store seq + 1, odd *)
    destruct W as (W1 & W2 & W3). split; [exact HL|]. split; [lia|]. split; [exact W2|lia].
  - apply (rinv_bump s _ r []); [cbn [seq]; lia|symmetry; apply app_nil_r|exact R].
  - (* pc 2: fence *) tauto.
  - exact (rinv_ext s _ r eq_refl eq_refl R).
  - (* pc 3: store the first half *)
    split; [exact HL|]. split; [tauto|]. split; [tauto|]. exists v, rest. tauto.
  - exact (rinv_ext s _ r eq_refl eq_refl R).
  - (* pc 4: store the second half *)
    destruct W as (W1 & W2 & v0 & rest0 & W3 & W4). injection W3 as <- <-.
    split; [exact HL|]. split; [exact W1|]. split; [exact W2|]. exists v, rest. auto.
  - exact (rinv_ext s _ r eq_refl eq_refl R).
  - (* pc 5: store seq + 2, the value is published *)
    destruct W as (W1 & W2 & v0 & rest0 & W3 & W4 & W5). injection W3 as <- <-.
    rewrite nth_app_last, app_length. cbn [length]. split; [lia|]. split; [lia|]. rewrite W4, W5. destruct v; reflexivity.
  - apply (rinv_bump s _ r [v]); [cbn [seq]; lia|reflexivity|exact R].
Qed.

Lemma even_seq_mem s j : winv s -> seq s = 2 * j -> (ma s, mb s) = last_val s /\ j = idx s.
Proof.
  (* from the writer's pc 2 on the sequence number is odd *)
  intros [HL W] E. destruct (wpc s) as [|[|[|[|[|[|k]]]]]]; try contradiction; destruct W as (W1 & W2); try lia.
  - split; [exact W2|lia].
  - split; [exact (proj1 W2)|lia].
Qed.

(* between the first load and the reload: each half the reader holds is one it held already or the one in
   memory now *)
Lemma rinv_next s r r' :
  winv s -> rinv s r -> rpc r >= 1 -> rpc r' <= 4 ->
  rs r' = rs r -> rj r' = rj r -> rout r' = rout r ->
  (rpc r' >= 2 -> ra r' = ra r /\ rpc r >= 2 \/ ra r' = ma s) ->
  (rpc r' >= 3 -> rb r' = rb r /\ rpc r >= 3 \/ rb r' = mb s) ->
  rinv s r'.
Proof.
  intros HW (A & B & C & D & E) P P' Es Ej Eo Ha Hb. unfold rinv. rewrite Es, Ej, Eo.
  destruct (E P) as (E1 & E2 & E3 & E4).
  split; [exact A|]. split; [exact B|]. split; [exact C|]. split; [exact P'|]. intros _.
  split; [exact E1|]. split; [exact E2|]. split; [exact E3|]. intros G.
  destruct (E4 G) as (Y1 & Y2 & Y3). destruct (even_seq_mem s (rj r) HW (eq_trans G E1)) as [M _].
  split; [|split; [|exact Y3]]; intros Q; rewrite <- M.
  - destruct (Ha Q) as [(-> & Q') | ->]; [rewrite (Y1 Q'), <- M|]; reflexivity.
  - destruct (Hb Q) as [(-> & Q') | ->]; [rewrite (Y2 Q'), <- M|]; reflexivity.
Qed.

Lemma reader_step_inv s r : winv s -> rinv s r -> rinv s (reader_step s r).
Proof.
  intros HW RI. pose proof RI as (A & B & C & D & E). unfold reader_step.
  destruct (rpc r) as [|[|[|[|n]]]] eqn:EP.
  - destruct (Nat.even (seq s)) eqn:EE; [|exact RI].
    pose proof (even_half _ EE) as EH.
    destruct (even_seq_mem s (seq s / 2) HW EH) as [M1 M2].
    unfold rinv; cbn -[Nat.div Nat.mul]. repeat split; auto; try lia.
    intros j v Hj. apply Nat.div_le_lower_bound; [lia|]. exact (C j v Hj).
  - apply (rinv_next s r _ HW RI); cbn [rpc rs ra rb rj rout]; rewrite ?EP; auto; lia.
  - apply (rinv_next s r _ HW RI); cbn [rpc rs ra rb rj rout]; rewrite ?EP; auto; lia.
  - apply (rinv_next s r _ HW RI); cbn [rpc rs ra rb rj rout]; rewrite ?EP; auto; lia.
  - destruct (E ltac:(lia)) as (E1 & E2 & E3 & E4).
    destruct HW as [HL W].
    destruct (Nat.eqb_spec (seq s) (rs r)) as [G|G].
    + destruct (E4 G) as (Y1 & Y2 & Y3).
      unfold rinv; cbn -[Nat.div Nat.mul]. repeat split; auto; try lia.
      * intros j v [X|X]; [|eapply A; eauto]. injection X as <- <-.
        rewrite (Y1 ltac:(lia)), (Y2 ltac:(lia)), Y3. unfold last_val.
        rewrite <- surjective_pairing. apply nth_error_nth'. unfold idx. lia.
      * destruct (rout r) as [|[j0 v0] rest]; cbn; auto. apply (E3 j0 v0). left; reflexivity.
      * intros j v [X|X]; [|eapply C; eauto]. injection X as <- <-. lia.
    + unfold rinv; cbn -[Nat.div Nat.mul]. repeat split; auto; try lia.
Qed.

Lemma sl_step_inv s t s' : sl_inv s -> sl_step s t = Some s' -> sl_inv s'.
Proof.
  intros HI. destruct t as [|i]; cbn [sl_step].
  - apply writer_step_inv; auto.
  - destruct (nth_error (readers s) i) as [r|] eqn:E; [|discriminate]. intros H; injection H as <-.
    destruct HI as [W R]. split; [exact W|]. cbn [readers set_readers]. intros r' Hr'.
    apply (rinv_ext s); [reflexivity|reflexivity|].
    apply In_nth_error in Hr'. destruct Hr' as [k Hk]. apply nth_error_lupd_inv in Hk.
    destruct Hk as [(_ & ->)|(_ & Hk)]; [apply reader_step_inv; [exact W|]|]; apply R; eapply nth_error_In; eauto.
Qed.

Theorem sl_run_inv sched : forall s, sl_inv s -> sl_inv (sl_run s sched).
Proof.
  induction sched as [|t r IH]; intros s HI; cbn [sl_run]; auto.
  destruct (sl_step s t) as [s'|] eqn:E; [apply IH; eapply sl_step_inv; eauto|apply IH; auto].
Qed.

Lemma sl_step_hist s t s' : sl_step s t = Some s' -> exists d, hist s' = hist s ++ d.
Proof.
  destruct t as [|i]; cbn [sl_step].
  - unfold writer_step. destruct (wvals s) as [|v rest]; [discriminate|].
    destruct (wpc s) as [|[|[|[|[|[|k]]]]]]; try discriminate; intros E; injection E as <-; cbn [hist];
      try (exists []; symmetry; apply app_nil_r). exists [v]. reflexivity.
  - destruct (nth_error (readers s) i); [|discriminate]. intros E; injection E as <-. exists []. symmetry. apply app_nil_r.
Qed.

(* the history is the initial value followed by a prefix of the values to write *)
Lemma hist_prefix sched : forall s, exists done, hist (sl_run s sched) = hist s ++ done.
Proof.
  induction sched as [|t r IH]; intros s; cbn [sl_run]; [exists []; rewrite app_nil_r; auto|].
  destruct (sl_step s t) as [s'|] eqn:E; [|apply IH].
  destruct (sl_step_hist _ _ _ E) as [d1 E1]. destruct (IH s') as [d2 E2].
  exists (d1 ++ d2). rewrite E2, E1, app_assoc. reflexivity.
Qed.
