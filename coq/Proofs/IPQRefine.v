(* util/indexed_priority_queue.rs (Model/IPQ.v: array heap + slab + free list + epochs)
   refines the list-with-epochs specification Model/IPQSpec.v: no indexing operation ever
   fails, and every operation sequence gives the same answers. *)
Require Import NX.Base.Prelude NX.Base.ListX NX.Model.PQ NX.Model.IPQ NX.Model.IPQSpec.
Require Import NX.Proofs.PQProofs NX.Proofs.IPQOrder NX.Proofs.IPQSift NX.Proofs.IPQHeap NX.Proofs.IPQSpecProofs.

Section Refine.
  Variable V : Type.
  Notation node := (node V).
  Notation strip := (strip V).
  Notation sslab := (list (option nat + V)).

  Fixpoint chain (ss : sslab) (ff : option nat) (l : list nat) : Prop :=
    match l with
    | [] => ff = None
    | i :: l' => ff = Some i /\ exists nx, nth_error ss i = Some (inl nx) /\ chain ss nx l'
    end.

  Definition FL (ss : sslab) (ff : option nat) : Prop := exists l, chain ss ff l /\ NoDup l.

  Lemma chain_free ss ff l i : chain ss ff l -> In i l -> exists nx, nth_error ss i = Some (inl nx).
  Proof.
    revert ff; induction l as [|j l' IH]; intros ff Hc Hi; [destruct Hi|].
    destruct Hc as (_ & nx & Hj & Hc'). destruct Hi as [->|Hi]; eauto.
  Qed.

  Lemma chain_lupd ss ff l i x : chain ss ff l -> ~ In i l -> chain (lupd ss i x) ff l.
  Proof.
    revert ff; induction l as [|j l' IH]; intros ff Hc Hi; [exact Hc|].
    destruct Hc as (Hff & nx & Hj & Hc'). split; [exact Hff|]. exists nx. split.
    - rewrite nth_error_lupd_ne; [exact Hj|]. intros ->. apply Hi. left. reflexivity.
    - apply IH; [exact Hc'|]. intros H; apply Hi; right; exact H.
  Qed.

  Lemma chain_app ss ff l x : chain ss ff l -> chain (ss ++ [x]) ff l.
  Proof.
    revert ff; induction l as [|j l' IH]; intros ff Hc; [exact Hc|].
    destruct Hc as (Hff & nx & Hj & Hc'). split; [exact Hff|]. exists nx. split; [|apply IH; exact Hc'].
    rewrite nth_error_app1; [exact Hj|]. eapply nth_error_some_lt; eauto.
  Qed.

  Definition abs_item (ss : sslab) (it : hitem) : option (item V) :=
    match nth_error ss (hslab it) with
    | Some (inr v) => Some {| PQ.ikey := hkey it; iepoch := hepoch it; ival := v |}
    | _ => None
    end.

  Lemma abs_item_some ss it x :
    abs_item ss it = Some x ->
    PQ.ikey x = hkey it /\ iepoch x = hepoch it /\ nth_error ss (hslab it) = Some (inr (ival x)).
  Proof.
    unfold abs_item. destruct (nth_error ss (hslab it)) as [[nx|v]|]; try discriminate.
    intros H; injection H as <-. cbn. auto.
  Qed.

  Lemma abs_item_ext ss ss' it :
    nth_error ss (hslab it) = nth_error ss' (hslab it) -> abs_item ss it = abs_item ss' it.
  Proof. unfold abs_item. intros ->. reflexivity. Qed.

  Lemma abs_item_node (sl : list node) it v h :
    nth_error sl (hslab it) = Some (HeapNode v h) ->
    abs_item (map strip sl) it = Some {| PQ.ikey := hkey it; iepoch := hepoch it; ival := v |}.
  Proof. intros H. unfold abs_item. rewrite nth_error_map, H. reflexivity. Qed.

  Lemma abs_item_lt ss a b xa xb :
    abs_item ss a = Some xa -> abs_item ss b = Some xb -> (ult a b <-> item_lt V xa xb).
  Proof.
    intros Ha Hb. apply abs_item_some in Ha. apply abs_item_some in Hb.
    destruct Ha as (Ka & Ea & _), Hb as (Kb & Eb & _). apply ult_item_lt; assumption.
  Qed.

  Lemma strip_heapnode (sl : list node) j v h :
    nth_error sl j = Some (HeapNode v h) -> nth_error (map strip sl) j = Some (inr v).
  Proof. intros H. rewrite nth_error_map, H. reflexivity. Qed.

  Lemma strip_inr (sl : list node) j v :
    nth_error (map strip sl) j = Some (inr v) -> exists h, nth_error sl j = Some (HeapNode v h).
  Proof.
    rewrite nth_error_map. destruct (nth_error sl j) as [[nx|v' h]|]; cbn; try discriminate.
    intros H; injection H as ->. eauto.
  Qed.

  Lemma strip_inl (sl : list node) j nx :
    nth_error (map strip sl) j = Some (inl nx) -> nth_error sl j = Some (FreeNode nx).
  Proof.
    rewrite nth_error_map. destruct (nth_error sl j) as [[nx'|v' h]|]; cbn; try discriminate.
    intros H; injection H as ->. reflexivity.
  Qed.

  Lemma owned_at hp (sl : list node) j v h :
    points V hp sl -> owned V hp (map strip sl) -> nth_error sl j = Some (HeapNode v h) ->
    exists it, nth_error hp h = Some it /\ hslab it = j.
  Proof.
    intros W O Hj. destruct (O j v (strip_heapnode _ _ _ _ Hj)) as (it & Hin & E).
    apply In_nth_error in Hin. destruct Hin as (i & Hi). destruct (W i it Hi) as (w & Hw).
    rewrite E, Hj in Hw. injection Hw as _ <-. eauto.
  Qed.

  Lemma points_abs hp (sl : list node) it :
    points V hp sl -> In it hp -> exists x, abs_item (map strip sl) it = Some x.
  Proof.
    intros H1 Hin. apply In_nth_error in Hin. destruct Hin as (i & Hi).
    destruct (H1 i it Hi) as (v & Hv). erewrite abs_item_node by exact Hv. eauto.
  Qed.

  Lemma HO_root_min hp r : HO hp -> nth_error hp 0 = Some r -> forall i x, nth_error hp i = Some x -> ule r x.
  Proof.
    intros Hho Hr i. induction i as [i IH] using lt_wf_ind. intros x Hx.
    destruct i as [|i']; [rewrite Hr in Hx; injection Hx as <-; apply ule_refl|].
    pose proof (parent_lt (S i') ltac:(lia)) as Hpl.
    destruct (nth_error hp (parent (S i'))) as [p|] eqn:Ep.
    - eapply ule_trans; [eapply (IH (parent (S i'))); eauto|]. apply (Hho (S i') x p); [lia|exact Hx|exact Ep].
    - apply nth_error_None in Ep. apply nth_error_some_lt in Hx. lia.
  Qed.

  Lemma HO_removelast hp : HO hp -> HO (removelast hp).
  Proof.
    intros H i x p Hi Hx Hp. apply nth_error_removelast in Hx. apply nth_error_removelast in Hp.
    eapply H; [exact Hi|apply Hx|apply Hp].
  Qed.

  Record Removed (hp : list hitem) (sl : list node) (it : hitem) (ff : option nat)
                 (hp' : list hitem) (sl' : list node) : Prop := {
    rm_pts : points V hp' sl';
    rm_ho : HO hp';
    rm_strip : map strip sl' = lupd (map strip sl) (hslab it) (inl ff);
    rm_in : forall x, In x hp' <-> In x hp /\ x <> it;
    rm_len : S (length hp') = length hp
  }.

  (* removal at heap position h, as performed by pull (h = 0, always sift_down) and by
     extract (sift_up if the last item is smaller than the removed one, else sift_down) *)
  Section RemoveAt.
    Variables (hp : list hitem) (sl : list node) (h : nat) (it : hitem) (ff : option nat).
    Hypothesis Hpts : points V hp sl.
    Hypothesis Hho : HO hp.
    Hypothesis Hit : nth_error hp h = Some it.

    Let sl1 := lupd sl (hslab it) (FreeNode ff).
    Let hp1 := removelast hp.
    Let n := length hp.

    Lemma ra_upd : upd sl (hslab it) (FreeNode ff) = Some sl1.
    Proof. destruct (Hpts h it Hit) as (v & Hv). apply upd_some. eapply nth_error_some_lt; eauto. Qed.

    Lemma ra_w1 i x : i <> h -> nth_error hp i = Some x -> exists v, nth_error sl1 (hslab x) = Some (HeapNode v i).
    Proof.
      intros Hne Hx. destruct (Hpts i x Hx) as (v & Hv). exists v.
      unfold sl1. rewrite nth_error_lupd_ne; [exact Hv|]. intros E. apply Hne. symmetry. eapply points_inj; eauto.
    Qed.

    Lemma ra_len : length hp1 = n - 1.
    Proof. apply removelast_length. Qed.

    Lemma remove_last_case : h = n - 1 -> Removed hp sl it ff hp1 sl1.
    Proof.
      intros Hh. pose proof (nth_error_some_lt _ _ _ Hit) as Hlt. fold n in Hlt. constructor.
      - intros i x Hx. apply nth_error_removelast in Hx. destruct Hx as [Hi Hx]. apply ra_w1; [fold n in Hi; lia|exact Hx].
      - apply HO_removelast. exact Hho.
      - exact (map_lupd strip sl (hslab it) (FreeNode ff)).
      - intros x. rewrite !In_nth_iff. split.
        + intros (i & Hx). apply nth_error_removelast in Hx. destruct Hx as [Hi Hx]. split; [eauto|].
          intros ->. assert (i = h) by (eapply points_inj; eauto). fold n in Hi. lia.
        + intros ((i & Hx) & Hne). exists i. apply nth_error_removelast. split; [|exact Hx].
          assert (i <> h) by (intros ->; congruence). apply nth_error_some_lt in Hx. fold n in Hx |- *. lia.
      - rewrite ra_len. lia.
    Qed.

    Lemma remove_sift_case last (down : bool) :
      h < n - 1 -> nth_error hp (n - 1) = Some last ->
      (if down then ule it last else ult last it) ->
      exists hp' sl',
        (if down then sift_down (S (length hp1)) hp1 sl1 last h else sift_up (S (length hp1)) hp1 sl1 last h)
        = Some (hp', sl') /\
        Removed hp sl it ff hp' sl'.
    Proof.
      intros Hh Hlast Hord. destruct (ra_w1 (n - 1) last ltac:(lia) Hlast) as (vl & Hvl).
      (* the heap once [last] has been written over position h *)
      set (hp2 := lupd hp1 h last).
      assert (Hhp2 : forall i x, nth_error hp2 i = Some x <->
                               (i = h /\ x = last) \/ (i <> h /\ i < n - 1 /\ nth_error hp i = Some x)).
      { intros i x. split.
        - intros Hx. apply nth_error_lupd_inv in Hx. destruct Hx as [Hx|[Hi Hx]]; [left; exact Hx|right].
          apply nth_error_removelast in Hx. tauto.
        - intros [[-> ->]|(Hi & Hl & Hx)]; [apply nth_error_lupd_eq; rewrite ra_len; exact Hh|].
          unfold hp2. rewrite nth_error_lupd_ne by auto. apply nth_error_removelast. auto. }
      assert (Hhole : hole V hp2 last hp1 sl1 h).
      { constructor; [rewrite ra_len; exact Hh| |reflexivity].
        exists vl, (n - 1). split; [exact Hvl|]. fold hp2.
        intros i x Hx. apply Hhp2 in Hx. destruct Hx as [[-> ->]|(Hi & Hl & Hx)].
        - exists vl. apply nth_error_lupd_eq. eapply nth_error_some_lt, Hvl.
        - destruct (ra_w1 i x Hi Hx) as (v & Hv). exists v. rewrite nth_error_lupd_ne; [exact Hv|].
          intros E. rewrite E, Hv in Hvl. injection Hvl. lia. }
      assert (HL : forall x, In x hp2 <-> In x hp /\ x <> it).
      { intros x. rewrite !In_nth_iff. split.
        - intros (i & Hx). apply Hhp2 in Hx. destruct Hx as [[-> ->]|(Hi & Hl & Hx)]; (split; [eauto|]); intros ->.
          + assert (n - 1 = h) by (eapply points_inj; eauto). lia.
          + apply Hi. eapply points_inj; eauto.
        - intros ((i & Hx) & Hne). assert (i <> h) by (intros ->; congruence).
          destruct (Nat.eq_dec i (n - 1)) as [->|Hn'].
          + exists h. apply Hhp2. left. split; [reflexivity|congruence].
          + exists i. apply Hhp2. right. pose proof (nth_error_some_lt _ _ _ Hx) as Hlt. fold n in Hlt.
            split; [assumption|]. split; [lia|exact Hx]. }
      (* with the removed entry still in the hole the heap is in order *)
      assert (Hho1 : HO (lupd hp1 h it)).
      { rewrite lupd_same by (apply nth_error_removelast; auto). apply HO_removelast. exact Hho. }
      assert (Hres : forall hp' sl', points V hp' sl' /\ (forall x, In x hp2 <-> In x hp') /\ HO hp' /\
                                     length hp' = length hp1 /\ map strip sl' = map strip sl1 -> Removed hp sl it ff hp' sl').
      { intros hp' sl' (Dw & Di & Hho' & Dl & Ds). constructor; auto.
        - rewrite Ds. exact (map_lupd strip sl (hslab it) (FreeNode ff)).
        - intros x. rewrite <- Di. apply HL.
        - rewrite Dl, ra_len. lia. }
      destruct down.
      - destruct (sift_down_correct V _ _ (S (length hp1)) _ _ _ Hhole) as (hp' & sl' & E & D);
          [exists it; auto|lia|eauto].
      - destruct (sift_up_correct V _ _ (S (length hp1)) _ _ _ Hhole) as (hp' & sl' & E & D);
          [exists it; split; [apply ult_ule; exact Hord|exact Hho1]|rewrite ra_len; lia|eauto].
    Qed.
  End RemoveAt.

  Record Inv (q : ipq V) (ks : list ikey) (a : pq V) : Prop := {
    inv_pts : points V (heap q) (slab q);
    inv_own : owned V (heap q) (map strip (slab q));
    inv_ho : HO (heap q);
    inv_fl : FL (map strip (slab q)) (first_free q);
    inv_next : inext q = next_epoch a;
    inv_len : length (items a) = length (heap q);
    inv_rel : forall x, In x (items a) <->
                        exists it, In it (heap q) /\ abs_item (map strip (slab q)) it = Some x;
    inv_ok : pq_ok V a;
    inv_keys : forall n ik, nth_error ks n = Some ik ->
                 kepoch ik = N.of_nat n /\
                 forall it, In it (heap q) -> hepoch it = N.of_nat n -> hslab it = kslab ik;
    inv_nkeys : N.of_nat (length ks) = inext q
  }.
  Arguments inv_pts {q ks a}.
  Arguments inv_own {q ks a}.
  Arguments inv_ho {q ks a}.
  Arguments inv_fl {q ks a}.
  Arguments inv_next {q ks a}.
  Arguments inv_len {q ks a}.
  Arguments inv_rel {q ks a}.
  Arguments inv_ok {q ks a}.
  Arguments inv_keys {q ks a}.
  Arguments inv_nkeys {q ks a}.

  Lemma Inv_heap_bound q ks a it : Inv q ks a -> In it (heap q) -> (hepoch it < inext q)%N.
  Proof.
    intros I Hin. destruct (points_abs _ _ _ (inv_pts I) Hin) as (x & Hx).
    assert (Hxin : In x (items a)) by (apply (inv_rel I); eauto).
    apply (proj2 (inv_ok I)) in Hxin. apply abs_item_some in Hx. destruct Hx as (_ & E & _).
    rewrite (inv_next I). lia.
  Qed.

  (* an epoch is the number of a key, the key names a slab node, the node one heap position *)
  Lemma Inv_epoch_inj q ks a u w :
    Inv q ks a -> In u (heap q) -> In w (heap q) -> hepoch u = hepoch w -> u = w.
  Proof.
    intros I Hu Hw E. pose proof (Inv_heap_bound _ _ _ _ I Hu) as Hb. pose proof (inv_nkeys I) as Hn.
    destruct (nth_error ks (N.to_nat (hepoch u))) as [ik|] eqn:Ek; [|apply nth_error_None in Ek; lia].
    destruct (inv_keys I _ _ Ek) as [_ Hs]. rewrite Nnat.N2Nat.id in Hs.
    pose proof (Hs u Hu eq_refl) as Eu. pose proof (Hs w Hw (eq_sym E)) as Ew.
    apply In_nth_error in Hu. apply In_nth_error in Hw. destruct Hu as (i & Hi), Hw as (j & Hj).
    assert (i = j) by (eapply (points_inj V); [exact (inv_pts I)|exact Hi|exact Hj|congruence]). congruence.
  Qed.

  Lemma root_sim q ks a :
    Inv q ks a ->
    match heap q with
    | [] => pq_peek_item a = None
    | it :: _ => exists x, pq_peek_item a = Some x /\ abs_item (map strip (slab q)) it = Some x /\
                           nth_error (slab q) (hslab it) = Some (HeapNode (ival x) 0)
    end.
  Proof.
    intros I. pose proof (inv_len I) as Hl.
    unfold pq_peek_item. destruct (heap q) as [|it rest] eqn:Hh; [destruct (items a); [reflexivity|discriminate]|].
    destruct (inv_pts I 0 it) as (v & Hv); [rewrite Hh; reflexivity|].
    pose proof (abs_item_node _ _ _ _ Hv) as Hx. eexists. split; [|split; [exact Hx|exact Hv]].
    apply peek_item_least; [exact (proj1 (inv_ok I))|apply (inv_rel I); rewrite Hh; cbn; eauto|].
    intros y Hy. apply (inv_rel I) in Hy. destruct Hy as (iy & Hiy & Hay).
    rewrite <- (abs_item_lt _ _ _ _ _ Hay Hx). apply ule_iff.
    apply In_nth_error in Hiy. destruct Hiy as (i & Hi).
    eapply HO_root_min; [exact (inv_ho I)|rewrite Hh; reflexivity|exact Hi].
  Qed.

  Lemma inv_after_remove q ks a it x hp' sl' :
    Inv q ks a -> In it (heap q) -> abs_item (map strip (slab q)) it = Some x ->
    Removed (heap q) (slab q) it (first_free q) hp' sl' ->
    Inv {| heap := hp'; slab := sl'; first_free := Some (hslab it); inext := inext q |} ks
        {| items := remove_epoch (iepoch x) (items a); next_epoch := next_epoch a |}.
  Proof.
    intros I Hin Habs [Rpts Rho Rstrip Rin Rlen].
    assert (Hxin : In x (items a)) by (apply (inv_rel I); eauto).
    pose proof (abs_item_some _ _ _ Habs) as (Kx & Ex & Hnode).
    assert (Hother : forall it', In it' (heap q) -> it' <> it ->
                       abs_item (map strip sl') it' = abs_item (map strip (slab q)) it').
    { intros it' Hin' Hne. apply abs_item_ext. rewrite Rstrip. apply nth_error_lupd_ne. intros E. apply Hne.
      apply In_nth_error in Hin, Hin'. destruct Hin as (i & Hi), Hin' as (j & Hj).
      pose proof (points_inj V _ _ _ _ _ _ (inv_pts I) Hi Hj E). congruence. }
    constructor; cbn [heap slab first_free inext items next_epoch].
    - exact Rpts.
    - intros j v Hj. rewrite Rstrip in Hj. apply nth_error_lupd_inv in Hj. destruct Hj as [[_ Hj]|[Hne Hj]]; [discriminate|].
      destruct (inv_own I j v Hj) as (it' & Hin' & E). exists it'. split; [apply Rin; split; [exact Hin'|congruence]|exact E].
    - exact Rho.
    - destruct (inv_fl I) as (l & Hch & Hnd). exists (hslab it :: l).
      assert (Hnotin : ~ In (hslab it) l).
      { intros Hl. destruct (chain_free _ _ _ _ Hch Hl) as (nx & Hnx). congruence. }
      rewrite Rstrip. split; [|constructor; assumption].
      split; [reflexivity|]. exists (first_free q). split.
      + apply nth_error_lupd_eq. eapply nth_error_some_lt, Hnode.
      + apply chain_lupd; assumption.
    - exact (inv_next I).
    - pose proof (remove_epoch_length V (items a) x Hxin). pose proof (inv_len I). lia.
    - intros y. rewrite (in_remove_epoch_iff V _ _ _ (proj1 (inv_ok I)) Hxin). split.
      + intros [Hy Hne]. apply (inv_rel I) in Hy. destruct Hy as (it' & Hin' & Habs').
        assert (it' <> it) by (intros ->; congruence).
        exists it'. split; [apply Rin; auto|]. rewrite Hother; auto.
      + intros (it' & Hin' & Habs'). apply Rin in Hin'. destruct Hin' as [Hin' Hne].
        rewrite Hother in Habs' by auto. split; [apply (inv_rel I); eauto|].
        intros ->. apply Hne. apply (Inv_epoch_inj _ _ _ _ _ I); auto.
        apply abs_item_some in Habs'. destruct Habs' as (_ & E & _). congruence.
    - apply pq_ok_remove; [exact (inv_ok I)|exact Hxin].
    - intros n ik Hn. destruct (inv_keys I n ik Hn) as [E Hk]. split; [exact E|].
      intros it' Hin' He. apply Hk; [|exact He]. apply Rin in Hin'. tauto.
    - exact (inv_nkeys I).
  Qed.

  Lemma remove_at_inv q ks a h it x d :
    Inv q ks a -> nth_error (heap q) h = Some it -> abs_item (map strip (slab q)) it = Some x ->
    let hp1 := removelast (heap q) in
    let sl1 := lupd (slab q) (hslab it) (FreeNode (first_free q)) in
    let lst := last (heap q) d in
    let Inv' hp' sl' :=
      Inv {| heap := hp'; slab := sl'; first_free := Some (hslab it); inext := inext q |} ks
          {| items := remove_epoch (iepoch x) (items a); next_epoch := next_epoch a |} in
    upd (slab q) (hslab it) (FreeNode (first_free q)) = Some sl1 /\
    (h = length (heap q) - 1 -> Inv' hp1 sl1) /\
    (h < length (heap q) - 1 -> forall down : bool, (if down then ule it lst else ult lst it) ->
       exists hp' sl',
         (if down then sift_down (S (length hp1)) hp1 sl1 lst h else sift_up (S (length hp1)) hp1 sl1 lst h)
         = Some (hp', sl') /\ Inv' hp' sl').
  Proof.
    intros I Hit Habs hp1 sl1 lst Inv'.
    pose proof (inv_pts I) as Hwf. pose proof (inv_ho I) as Hho.
    assert (Hfin : forall hp' sl', Removed (heap q) (slab q) it (first_free q) hp' sl' -> Inv' hp' sl').
    { intros hp' sl' Hrm. apply inv_after_remove; [exact I|eapply nth_error_In, Hit|exact Habs|exact Hrm]. }
    split; [exact (ra_upd _ _ h it _ Hwf Hit)|]. split.
    - intros Hh. apply Hfin, (remove_last_case _ _ h); assumption.
    - intros Hh down Hord. assert (Hne : heap q <> []) by (intros E; rewrite E in Hit; destruct h; discriminate).
      destruct (remove_sift_case _ _ h it (first_free q) Hwf Hho Hit lst down Hh (last_nth_error _ d Hne) Hord)
        as (hp' & sl' & E & Hrm). eauto.
  Qed.

  Lemma pull_sim q ks a :
    Inv q ks a ->
    exists q', ipq_pull q = Some (fst (pq_pull a), q') /\ Inv q' ks (snd (pq_pull a)).
  Proof.
    intros I. pose proof (root_sim q ks a I) as Hroot. unfold ipq_pull, pq_pull.
    destruct (heap q) as [|it rest] eqn:Hh; [rewrite Hroot; eauto|]. rewrite <- Hh.
    destruct Hroot as (x & -> & Habs & Hnode). cbn [fst snd].
    pose proof (abs_item_some _ _ _ Habs) as (-> & _).
    assert (Hit : nth_error (heap q) 0 = Some it) by (rewrite Hh; reflexivity).
    assert (Hlast : nth_error (heap q) (length (heap q) - 1) = Some (last (heap q) it)).
    { apply last_nth_error. rewrite Hh. discriminate. }
    destruct (remove_at_inv q ks a 0 it x it I Hit Habs) as (-> & Hend & Hsift).
    rewrite Hnode, !bind_some.
    destruct (Nat.eqb_spec (hslab (last (heap q) it)) (hslab it)) as [E|E].
    - eexists. split; [reflexivity|]. apply Hend. symmetry. exact (points_inj V _ _ _ _ _ _ (inv_pts I) Hlast Hit E).
    - destruct (Hsift) with (down := true) as (hp' & sl' & -> & I'); [|exact (HO_root_min _ _ (inv_ho I) Hit _ _ Hlast)|rewrite bind_some; eauto].
      destruct (length (heap q) - 1); [|lia]. exfalso. apply E. congruence.
  Qed.

  Lemma peek_sim q ks a : Inv q ks a -> ipq_peek q = Some (pq_peek a).
  Proof.
    intros I. pose proof (root_sim q ks a I) as Hroot. unfold ipq_peek, pq_peek.
    destruct (heap q) as [|it rest]; [rewrite Hroot; reflexivity|].
    destruct Hroot as (x & -> & Habs & ->). apply abs_item_some in Habs. destruct Habs as (-> & _). reflexivity.
  Qed.

  Lemma peek_key_peek (q : ipq V) o : ipq_peek q = Some o -> ipq_peek_key q = option_map fst o.
  Proof.
    unfold ipq_peek, ipq_peek_key. destruct (heap q) as [|it rest]; [intros H; injection H as <-; reflexivity|].
    destruct (nth_error (slab q) (hslab it)) as [[nx|v h]|]; try discriminate. intros H; injection H as <-. reflexivity.
  Qed.

  Lemma key_lookup q ks a n ik x :
    Inv q ks a -> nth_error ks n = Some ik -> In x (items a) -> iepoch x = N.of_nat n ->
    exists it h, nth_error (heap q) h = Some it /\ abs_item (map strip (slab q)) it = Some x /\
                 nth_error (slab q) (hslab it) = Some (HeapNode (ival x) h) /\
                 hslab it = kslab ik /\ hepoch it = kepoch ik.
  Proof.
    intros I Hk Hxin Ex. destruct (inv_keys I n ik Hk) as [Eke Hslab].
    pose proof (proj1 (inv_rel I x) Hxin) as (it & Hin & Habs).
    pose proof (abs_item_some _ _ _ Habs) as (_ & Ee & Hs).
    destruct (In_nth_error _ _ Hin) as (h & Hit). destruct (inv_pts I h it Hit) as (v & Hv). erewrite strip_heapnode in Hs by exact Hv. injection Hs as ->.
    exists it, h. split; [exact Hit|]. split; [exact Habs|]. split; [exact Hv|]. split; [apply Hslab|]; congruence.
  Qed.

  Lemma extract_sim q ks a n ik :
    Inv q ks a -> nth_error ks n = Some ik ->
    exists q', ipq_extract q ik = Some (fst (a_extract a n), q') /\ Inv q' ks (snd (a_extract a n)).
  Proof.
    intros I Hk. unfold ipq_extract.
    destruct (a_extract_cases V a n) as [(x & Hxin & Ex & ->)|[Hnone ->]]; cbn [fst snd].
    - (* the entry is still queued *)
      destruct (key_lookup q ks a n ik x I Hk Hxin Ex) as (it & h & Hit & Habs & Hv & <- & Ee).
      pose proof (abs_item_some _ _ _ Habs) as (-> & _).
      rewrite Hv, Hit, bind_some. apply N.eqb_eq in Ee. rewrite Ee. cbn [negb].
      destruct (heap q) as [|h0 rest] eqn:Hh; [destruct h; discriminate|]. rewrite <- Hh in *.
      destruct (remove_at_inv q ks a h it x h0 I Hit Habs) as (-> & Hend & Hsift). rewrite bind_some.
      destruct (nth_error (removelast (heap q)) h) as [cur|] eqn:Ecur.
      + apply nth_error_removelast in Ecur. destruct Ecur as [Hh1 Ecur]. rewrite Hit in Ecur. injection Ecur as <-.
        destruct (ukey_ltb (last (heap q) h0) it) eqn:El.
        * destruct (Hsift Hh1 false El) as (hp' & sl' & -> & I'). rewrite bind_some. eauto.
        * apply ukey_ltb_false in El.
          destruct (Hsift Hh1 true El) as (hp' & sl' & -> & I'). rewrite bind_some. eauto.
      + apply nth_error_None in Ecur. rewrite removelast_length in Ecur. apply nth_error_some_lt in Hit.
        eexists. split; [reflexivity|]. apply Hend. lia.
    - (* no entry carries the key's epoch: nothing happens *)
      exists q. split; [|exact I].
      destruct (nth_error (slab q) (kslab ik)) as [[nx|v hidx]|] eqn:En; try reflexivity.
      destruct (owned_at _ _ _ _ _ (inv_pts I) (inv_own I) En) as (it & Hit & Hsl). rewrite Hit, bind_some.
      destruct (N.eqb_spec (hepoch it) (kepoch ik)) as [E|E]; [|reflexivity].
      exfalso. assert (Hin : In it (heap q)) by (eapply nth_error_In; eauto).
      destruct (points_abs _ _ _ (inv_pts I) Hin) as (x & Hx).
      assert (Hxin : In x (items a)) by (apply (inv_rel I); eauto).
      apply (Hnone x Hxin). apply abs_item_some in Hx. destruct Hx as (_ & Ee & _).
      destruct (inv_keys I n ik Hk) as [Eke _]. congruence.
  Qed.

  Lemma extract_nokey_sim q ks a n :
    Inv q ks a -> nth_error ks n = None -> a_extract a n = (None, a).
  Proof.
    intros I Hk. destruct (a_extract_cases V a n) as [(x & Hxin & Ex & _)|[_ E]]; [exfalso|exact E].
    apply (proj2 (inv_ok I)) in Hxin. apply nth_error_None in Hk.
    pose proof (inv_nkeys I). pose proof (inv_next I). lia.
  Qed.

  Lemma insert_finish q ks a k v (sl : list node) ff idx :
    Inv q ks a ->
    nth_error sl idx = Some (HeapNode v 0) ->
    (forall j, j <> idx -> nth_error sl j = nth_error (slab q) j) ->
    (forall v' h, nth_error (slab q) idx <> Some (HeapNode v' h)) ->
    FL (map strip sl) ff ->
    exists hp' sl',
      sift_up (S (length (heap q) + 1)) (heap q ++ [{| hkey := k; hepoch := inext q; hslab := 0 |}]) sl
              {| hkey := k; hepoch := inext q; hslab := idx |} (length (heap q)) = Some (hp', sl') /\
      Inv {| heap := hp'; slab := sl'; first_free := ff; inext := (inext q + 1)%N |}
          (ks ++ [{| kslab := idx; kepoch := inext q |}]) (pq_insert a k v).
  Proof.
    intros I Hnew Hsame Hold Hfl.
    set (it := {| hkey := k; hepoch := inext q; hslab := idx |}).
    set (it0 := {| hkey := k; hepoch := inext q; hslab := 0 |}).
    set (n := length (heap q)).
    pose proof (inv_pts I) as W1.
    assert (Hheap_idx : forall i x, nth_error (heap q) i = Some x -> hslab x <> idx).
    { intros i x Hx E. destruct (W1 i x Hx) as (v' & Hv'). rewrite E in Hv'. eapply Hold; eauto. }
    (* the heap with the new item in its place at the end *)
    assert (Hfill : lupd (heap q ++ [it0]) n it = heap q ++ [it]) by apply lupd_snoc.
    assert (Hhole : hole V (heap q ++ [it]) it (heap q ++ [it0]) sl n).
    { constructor; [rewrite app_length; cbn; lia| |rewrite Hfill; reflexivity].
      exists v, 0. split; [exact Hnew|]. rewrite Hfill.
      intros i x Hx. apply nth_error_snoc_inv in Hx. destruct Hx as [Hx|[-> ->]].
      - destruct (W1 i x Hx) as (v' & Hv'). pose proof (Hheap_idx i x Hx) as Hxi. exists v'.
        rewrite nth_error_lupd_ne, Hsame by auto. exact Hv'.
      - exists v. apply nth_error_lupd_eq. eapply nth_error_some_lt, Hnew. }
    (* at the end of the heap the larger of the new entry and its parent would be in order *)
    assert (Hsu : SU it (heap q ++ [it0]) n).
    { assert (Hy : exists y, ule it y /\ forall p, nth_error (heap q) (parent n) = Some p -> ule p y).
      { destruct (nth_error (heap q) (parent n)) as [p|]; [destruct (ule_total p it) as [Hle|Hlt]|].
        - exists it. split; [apply ule_refl|]. intros p' E. injection E as <-. exact Hle.
        - exists p. split; [apply ult_ule; exact Hlt|]. intros p' E. injection E as <-. apply ule_refl.
        - exists it. split; [apply ule_refl|discriminate]. }
      destruct Hy as (y & Hy & Hp). exists y. split; [exact Hy|].
      unfold n. rewrite lupd_snoc. apply HO_snoc; [exact (inv_ho I)|exact Hp]. }
    destruct (sift_up_correct V _ it (S (n + 1)) _ _ _ Hhole Hsu) as (hp' & sl' & Es & Dw & Di & Hho' & Dl & Ds); [lia|].
    exists hp', sl'. split; [exact Es|].
    assert (Di' : forall x, In x hp' <-> In x (heap q) \/ x = it).
    { intros x. rewrite <- Di, in_app_iff. cbn [In]. intuition. }
    assert (Habs_old : forall it', In it' (heap q) ->
              abs_item (map strip sl') it' = abs_item (map strip (slab q)) it').
    { intros it' Hin'. apply In_nth_error in Hin'. destruct Hin' as (i & Hi). apply abs_item_ext.
      rewrite Ds, !nth_error_map, Hsame; [reflexivity|eapply Hheap_idx; eauto]. }
    assert (Habs_new : abs_item (map strip sl') it = Some {| PQ.ikey := k; iepoch := next_epoch a; ival := v |}).
    { rewrite Ds, (abs_item_node sl it v 0 Hnew). cbn [hkey hepoch it]. rewrite (inv_next I). reflexivity. }
    pose proof (inv_nkeys I) as Hnk.
    constructor; cbn [heap slab first_free inext].
    - exact Dw.
    - intros j v' Hj. rewrite Ds, nth_error_map in Hj. destruct (Nat.eq_dec j idx) as [->|Hne].
      + exists it. split; [apply Di'; right; reflexivity|reflexivity].
      + rewrite Hsame, <- nth_error_map in Hj by exact Hne. destruct (inv_own I j v' Hj) as (x & Hx & E).
        exists x. split; [apply Di'; left; exact Hx|exact E].
    - exact Hho'.
    - rewrite Ds. exact Hfl.
    - cbn [pq_insert next_epoch]. rewrite (inv_next I). reflexivity.
    - cbn [pq_insert items]. rewrite !app_length, Dl, app_length, (inv_len I). reflexivity.
    - intros x. cbn [pq_insert items]. rewrite in_app_iff. cbn [In]. split.
      + intros [Hx|[<-|[]]].
        * apply (inv_rel I) in Hx. destruct Hx as (it' & Hin' & Habs').
          exists it'. split; [apply Di'; left; exact Hin'|]. rewrite Habs_old; assumption.
        * exists it. split; [apply Di'; right; reflexivity|exact Habs_new].
      + intros (it' & Hin' & Habs'). apply Di' in Hin'. destruct Hin' as [Hin'| ->].
        * left. apply (inv_rel I). exists it'. split; [exact Hin'|]. rewrite <- Habs_old; assumption.
        * right. left. rewrite Habs_new in Habs'. congruence.
    - apply pq_ok_insert. exact (inv_ok I).
    - intros m ik Hm. apply nth_error_snoc_inv in Hm. destruct Hm as [Hm|[-> ->]].
      + destruct (inv_keys I m ik Hm) as [E Hk]. split; [exact E|].
        intros it' Hin' He. apply Di' in Hin'. destruct Hin' as [Hin'| ->]; [apply Hk; assumption|].
        apply nth_error_some_lt in Hm. cbn [hepoch it] in He. lia.
      + cbn [kepoch kslab]. split; [symmetry; exact Hnk|].
        intros it' Hin' He. apply Di' in Hin'. destruct Hin' as [Hin'| ->]; [|reflexivity].
        pose proof (Inv_heap_bound _ _ _ _ I Hin'). lia.
    - rewrite app_length. cbn [length]. lia.
  Qed.

  Lemma insert_sim q ks a k v :
    Inv q ks a ->
    exists q' ik, ipq_insert q k v = Some (q', ik) /\ Inv q' (ks ++ [ik]) (pq_insert a k v).
  Proof.
    intros I. unfold ipq_insert. destruct (inv_fl I) as (l & Hch & Hnd).
    destruct (first_free q) as [idx|] eqn:Eff.
    - (* re-use of the first free slab node *)
      destruct l as [|i l']; [discriminate Hch|]. destruct Hch as (Ei & nx & Hnx & Hch'). injection Ei as <-.
      pose proof (strip_inl _ _ _ Hnx) as Hnode. pose proof (nth_error_some_lt _ _ _ Hnode) as Hlt.
      rewrite Hnode, bind_some, upd_some, !bind_some by exact Hlt.
      destruct (insert_finish q ks a k v (lupd (slab q) idx (HeapNode v 0)) nx idx I) as (hp' & sl' & Es & I').
      + apply nth_error_lupd_eq. exact Hlt.
      + intros j Hne. apply nth_error_lupd_ne. auto.
      + intros v' h. rewrite Hnode. discriminate.
      + exists l'. inversion Hnd; subst. split; [|assumption].
        rewrite map_lupd. apply chain_lupd; assumption.
      + cbv zeta. rewrite Es, bind_some. eauto.
    - (* a new slab node *)
      destruct l as [|i l']; [|destruct Hch as (Ei & _); discriminate Ei]. rewrite bind_some.
      destruct (insert_finish q ks a k v (slab q ++ [HeapNode v 0]) None (length (slab q)) I) as (hp' & sl' & Es & I').
      + rewrite nth_error_app2, Nat.sub_diag by lia. reflexivity.
      + intros j Hne. destruct (Nat.lt_ge_cases j (length (slab q))) as [H|H]; [apply nth_error_app1; exact H|].
        transitivity (@None node); [|symmetry]; apply nth_error_None; [rewrite app_length; cbn; lia|exact H].
      + intros v' h Hc. apply nth_error_some_lt in Hc. lia.
      + exists []. split; [reflexivity|constructor].
      + cbv zeta. rewrite Es, bind_some. eauto.
  Qed.

  Lemma Inv_empty : Inv ipq_empty [] pq_empty.
  Proof.
    constructor; cbn.
    - intros [|i] ?; discriminate.
    - intros [|j] ?; discriminate.
    - intros [|i] x p _ Hx; discriminate.
    - exists []. split; [reflexivity|constructor].
    - reflexivity.
    - reflexivity.
    - intros x. split; [intros []|intros (it & [] & _)].
    - exact (pq_ok_empty V).
    - intros [|n] ik; discriminate.
    - reflexivity.
  Qed.

  Lemma step_sim q ks a o :
    Inv q ks a ->
    exists q' ks', ipq_step (q, ks) o = Some ((q', ks'), snd (a_step a o)) /\ Inv q' ks' (fst (a_step a o)).
  Proof.
    intros I. destruct o as [k v| | | |n|]; cbn [ipq_step a_step].
    - destruct (insert_sim q ks a k v I) as (q' & ik & E & I'). rewrite E, bind_some. cbn [fst snd]. eauto.
    - destruct (pull_sim q ks a I) as (q' & E & I'). rewrite E, bind_some.
      destruct (pq_pull a) as [r a']. cbn [fst snd] in *. eauto.
    - rewrite (peek_sim q ks a I), bind_some. cbn [fst snd]. eauto.
    - rewrite (peek_key_peek q _ (peek_sim q ks a I)). destruct (pq_peek a) as [[k v]|]; cbn; eauto.
    - destruct (nth_error ks n) as [ik|] eqn:Ek.
      + destruct (extract_sim q ks a n ik I Ek) as (q' & E & I'). rewrite E, bind_some.
        destruct (a_extract a n) as [r a']. cbn [fst snd] in *. eauto.
      + rewrite (extract_nokey_sim q ks a n I Ek). cbn [fst snd ires_of]. eauto.
    - cbn [fst snd]. unfold pq_len. rewrite (inv_len I). eauto.
  Qed.

  Theorem ipq_refines_gen ops : forall q ks a, Inv q ks a -> ipq_run (q, ks) ops = a_run a ops.
  Proof.
    induction ops as [|o ops IH]; intros q ks a I; [reflexivity|].
    cbn [ipq_run a_run]. destruct (step_sim q ks a o I) as (q' & ks' & E & I').
    rewrite E. destruct (a_step a o) as [a' x]. cbn [fst snd] in *. f_equal. apply IH. exact I'.
  Qed.

  Theorem ipq_refines ops : ipq_run (ipq_empty, []) ops = a_run (V:=V) pq_empty ops.
  Proof. apply ipq_refines_gen. exact Inv_empty. Qed.
End Refine.
