(* Every operation of Model/TaskSM.v preserves the invariant of Model/TaskInv.v;
   hence it holds in every state reachable from spawn / spawn_and_forget under
   any interleaving. *)
Require Import NX.Base.Prelude NX.Model.TaskSM NX.Model.TaskInv.
Require Import ZifyBool.

(* [inv_b s] pins the finite part of [s] (allocated or not, phase of the runner, core, CLOSED, POLLING, canceller
   in flight, a Runnable queued or not) down to 22 shapes and leaves linear constraints on the counters.
   [inv_shapes s H] enumerates these shapes, with [H] split into its conjuncts and every counter that a
   conjunct determines replaced by its value.  Splitting before the case analysis makes an impossible shape
   show up as a hypothesis [false = true]; deciding that by arithmetic on the whole conjunction is far slower. *)
Ltac inv_shapes s H :=
  destruct s as [w r c p co al wk tk pr q rn cd fd od dd bp br bf];
  unfold inv_b, phase_ok, runnable_exists, active in H; cbn in H;
  destruct al, rn as [|wc [|]|wc| | | ];
  repeat match goal with I : _ && _ = true |- _ => apply andb_prop in I; destruct I end;
  destruct co, cd, p, c; cbn in *; try discriminate;
  repeat match goal with I : (?x =? _) = true |- _ => is_var x; apply Nat.eqb_eq in I; subst x end;
  (* at most one Runnable is queued: with [q] a numeral most conjuncts about it compute *)
  try (destruct q as [|[|q]]; cbn -[Bool.eqb Nat.eqb] in *; try discriminate);
  (* conjuncts without a variable say nothing, and every hypothesis makes the later steps dearer *)
  repeat match goal with I : ?x = true |- _ => unify x true; clear I end.

(* [cbn] alone walks the nested record updates of a stepped state again and again; unfolding the
   model's own definitions and the projections first, and nothing of the arithmetic, is much cheaper. *)
Tactic Notation "expose" "in" hyp(H) :=
  lazy [ts_step has_waker last_ref_release wake_rmw runnable_exists upd set_handles set_run drop_future drop_output dealloc
    bump_badpoll bump_badrun inv_b phase_ok active is_fut is_out is_empty wake refs closed polling tcore alloc wakers token
    promise queued runner cdrop futdrops outdrops deallocs badpoll badrun badfree] in H.
Tactic Notation "expose" :=
  lazy [ts_step has_waker last_ref_release wake_rmw runnable_exists upd set_handles set_run drop_future drop_output dealloc
    bump_badpoll bump_badrun inv_b phase_ok active is_fut is_out is_empty wake refs closed polling tcore alloc wakers token
    promise queued runner cdrop futdrops outdrops deallocs badpoll badrun badfree].

(* [lia] translates every hypothesis in scope and the kernel checks all of that again; almost every goal below
   follows from no hypothesis or from a single one.  So [lia1] tries [lia] with none, then with each one
   alone, and only then with all of them. *)
Ltac lia1 := pose proof I as T;
  first [clear - T; lia | match goal with H : _ = _ |- _ => clear - H; lia end | lia].

Theorem ts_step_inv s o s' : inv_b s = true -> ts_step s o = Some s' -> inv_b s' = true.
Proof.
  intros HI HS. inv_shapes s HI.
  (* the operations enabled in each shape, one goal per branch taken *)
  all: destruct o; expose in HS; cbn in HS;
    repeat match type of HS with context [if ?b then _ else _] => destruct b eqn:?; cbn in HS end;
    try discriminate HS; injection HS as <-.
  all: expose; cbn -[Bool.eqb].
  (* a branch whose guards contradict the invariant shows a conjunct [false] *)
  all: try match goal with |- context [_ && false] => exfalso; lia1 end.
  all: repeat match goal with |- _ && _ = true => apply andb_true_intro; split end;
    try reflexivity; try assumption; try apply Nat.eqb_refl; try lia1.
  (* what is left needs the value of both handles *)
  all: destruct tk, pr; cbn [b2n negb] in *; lia1.
Qed.

Theorem ts_run_inv ops : forall s, inv_b s = true -> inv_b (ts_run s ops) = true.
Proof.
  induction ops as [|o r IH]; intros s HI; cbn [ts_run]; auto.
  destruct (ts_step s o) as [s'|] eqn:E; [apply IH; eapply ts_step_inv; eauto|apply IH; auto].
Qed.

Lemma init_spawn_inv : inv_b init_spawn = true. Proof. reflexivity. Qed.
Lemma init_forget_inv : inv_b init_forget = true. Proof. reflexivity. Qed.

Lemma inv_meaning s : inv_b s = true ->
    badpoll s = 0 /\ badrun s = 0 /\ badfree s = 0 /\ queued s + active s <= 1 /\
    futdrops s <= 1 /\ outdrops s <= 1 /\ deallocs s <= 1 /\
    (alloc s = true -> refs s = wakers s + b2n (token s) + b2n (promise s) + b2n (cdrop s)) /\
    (alloc s = true -> (queued s + active s = 1 <-> runnable_exists s = true)) /\
    (alloc s = true -> wakers s + b2n (token s) + b2n (promise s) + queued s + active s + b2n (cdrop s) >= 1) /\
    (alloc s = false -> deallocs s = 1 /\ futdrops s = 1 /\ wakers s = 0 /\ token s = false /\ promise s = false /\
                        queued s = 0 /\ active s = 0).
Proof.
  intros H. unfold inv_b in H.
  repeat match goal with I : _ && _ = true |- _ => apply andb_prop in I; destruct I end.
  destruct (alloc s);
    repeat match goal with I : _ && _ = true |- _ => apply andb_prop in I; destruct I end;
    destruct (tcore s); cbn [is_fut is_out is_empty] in *; repeat split; intros; try discriminate; lia1.
Qed.

Lemma reachable_inv ops s : s = ts_run init_forget ops \/ s = ts_run init_spawn ops -> inv_b s = true.
Proof. intros [->| ->]; apply ts_run_inv; [apply init_forget_inv|apply init_spawn_inv]. Qed.

(* once every handle is gone the task has been freed, exactly once *)
Lemma inv_no_leak s : inv_b s = true ->
  wakers s = 0 -> token s = false -> promise s = false -> queued s = 0 -> active s = 0 -> cdrop s = false ->
  alloc s = false /\ deallocs s = 1 /\ futdrops s = 1 /\ outdrops s <= 1 /\ badfree s = 0.
Proof.
  intros H H1 H2 H3 H4 H5 H6.
  destruct (inv_meaning s H) as (_ & _ & BF & _ & _ & OD & _ & _ & _ & NL & FR).
  destruct (alloc s) eqn:EA.
  - specialize (NL eq_refl). rewrite H1, H2, H3, H4, H5, H6 in NL. cbn in NL. lia.
  - destruct (FR eq_refl) as (A & B & _). auto.
Qed.
