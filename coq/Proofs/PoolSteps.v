(* How the invariant of the pool protocol (PoolInv.v) follows a change of one worker or of the main thread:
   first the clauses other than the balance of wake-ups (Base), then the balance; a step that touches two
   parties is two such changes in a row, the balance being re-established at the end. *)
Require Import NX.Base.Prelude NX.Base.ListX NX.Model.Pool NX.Proofs.PoolInv.

Lemma map_wact_lupd l j w' : j < length l -> wact w' = wact (nth j l wdef) ->
  map wact (lupd l j w') = map wact l.
Proof.
  revert j; induction l as [|y l IH]; intros j H E; cbn [length] in H; [lia|].
  destruct j; cbn [lupd map nth] in *; [rewrite E; reflexivity|]. rewrite IH; auto; lia.
Qed.

Ltac wsplit x j := destruct (Nat.eqb_spec x j) as [->|?].

Lemma inactive_parkish s v : Base s -> wact (W s v) = false -> parkish (wpc (W s v)) = true.
Proof.
  intros I H. destruct (parkish (wpc (W s v))) eqn:E; auto.
  rewrite (i_bit s I v E) in H. discriminate.
Qed.

Lemma active_not_quiet s v : Base s -> wact (W s v) = true -> main_quiet (pmain s) = false.
Proof.
  intros I H. destruct (main_quiet (pmain s)) eqn:E; auto.
  rewrite (i_main s I E v) in H. discriminate.
Qed.

Lemma active_no_last s v x : Base s -> wact (W s v) = true -> x <> v -> last_pc (wpc (W s x)) = false.
Proof.
  intros I H Hx. destruct (last_pc (wpc (W s x))) eqn:E; auto.
  rewrite (i_last s I x E v) in H by auto. discriminate.
Qed.

Lemma idle_no_last s x : Base s -> (forall v, wact (W s v) = false) -> last_pc (wpc (W s x)) = false.
Proof.
  intros I H. destruct (last_pc (wpc (W s x))) eqn:E; auto.
  specialize (H x). rewrite (i_bit s I x (last_not_parkish _ E)) in H. discriminate.
Qed.

(* Worker j changes.  Premises, in order: the shared fields; i_pc, i_loc, i_bit, i_wact of w'; the bit (kept,
   cleared, or set while nobody relies on the pool being idle); i_last, i_last0, i_inj, i_mwake. *)
Lemma base_upd s s' j w' :
  Base s -> j < length (pws s) -> pws s' = lupd (pws s) j w' ->
  pmain s' = pmain s -> ppanic s' = ppanic s -> preads s' = preads s ->
  (pmsg s' + wcnt w' - pnet s' = pmsg s + wcnt (W s j) - pnet s)%Z ->
  (pinj s' = pinj s \/ wact (W s j) = true) -> (pmtok s = true -> pmtok s' = true) ->
  pc_ok (wpc w') -> local_ok w' -> (parkish (wpc w') = false -> wact w' = true) ->
  (forall v, wpc w' = WAct v -> v < length (pws s)) ->
  (wact w' = wact (W s j) \/ wact (W s j) = true \/
   (main_quiet (pmain s) = false /\ forall x, last_pc (wpc (W s x)) = false)) ->
  (last_pc (wpc w') = true -> forall v, v <> j -> wact (W s v) = false) ->
  (wpc w' = WPost [BSetAllInactive; BUnparkMain; BPark] -> pinj s' = 0) ->
  (0 < pinj s' -> wact w' = true \/ (exists v, v <> j /\ wact (W s v) = true) \/ wact (W s j) = false) ->
  (pmain s = MPark -> wact w' = false -> wact (W s j) = true \/ wpc (W s j) = WPost [BUnparkMain; BPark] ->
   (exists v, v <> j /\ wact (W s v) = true) \/ pmtok s' = true \/ wpc w' = WPost [BUnparkMain; BPark]) ->
  Base s'.
Proof.
  intros I Hj Ews Em Ep Er Hsum Hinj Hmt1 Hpc Hloc Hbit Hwa Hact Hlast Hlast0 Hinj2 Hmt2.
  assert (EW : forall x, W s' x = if Nat.eqb x j then w' else W s x) by (intros x; eapply W_upd; eauto).
  assert (Aq : main_quiet (pmain s) = true -> wact w' = false /\ wact (W s j) = false).
  { intros Q. pose proof (i_main s I Q j) as A. destruct Hact as [E|[E|[E _]]]; split; congruence. }
  assert (Al : forall x, x <> j -> last_pc (wpc (W s x)) = true -> wact w' = false).
  { intros x Hx L. pose proof (i_last s I x L j (not_eq_sym Hx)) as A.
    destruct Hact as [E|[E|[_ E]]]; [congruence|congruence|]. rewrite E in L; discriminate. }
  constructor.
  - rewrite Ews, lupd_length. exact (i_len s I).
  - intros x; rewrite EW; wsplit x j; [exact Hpc|exact (i_pc s I x)].
  - intros x; rewrite EW; wsplit x j; [exact Hloc|exact (i_loc s I x)].
  - intros x; rewrite EW; wsplit x j; [exact Hbit|exact (i_bit s I x)].
  - intros x v; rewrite EW, Ews, lupd_length; wsplit x j; [apply Hwa|apply (i_wact s I)].
  - intros x; rewrite EW; wsplit x j; intros L v Hv; rewrite EW.
    + destruct (Nat.eqb_spec v j); [contradiction|]. apply Hlast; auto.
    + wsplit v j; [eapply Al; eauto|eapply i_last; eauto].
  - intros x; rewrite EW; wsplit x j; [exact Hlast0|].
    intros H. destruct Hinj as [->|A]; [eapply i_last0; eauto|].
    assert (L : last_pc (wpc (W s x)) = true) by (rewrite H; reflexivity).
    rewrite (i_last s I x L j) in A by auto. discriminate.
  - rewrite Em. intros Q v. rewrite EW; wsplit v j; [apply Aq, Q|apply (i_main s I Q)].
  - intros a; rewrite Em. intros H. rewrite (i_snap s I a H). unfold acts. rewrite Ews.
    symmetry. apply map_wact_lupd; auto. fold (W s j).
    destruct Aq as [A1 A2]; [rewrite H; reflexivity|congruence].
  - rewrite Em. intros H. destruct (Hinj2 H) as [A|[[v [Hv A]]|A]].
    + left. exists j. rewrite EW, Nat.eqb_refl. exact A.
    + left. exists v. rewrite EW. destruct (Nat.eqb_spec v j); [contradiction|exact A].
    + destruct Hinj as [E|F]; [|congruence]. rewrite E in H.
      destruct (i_inj s I H) as [[v Hv]|F]; [|right; exact F].
      left. exists v. rewrite EW. wsplit v j; [congruence|exact Hv].
  - rewrite Ews, sumc_lupd by auto. fold (W s j). pose proof (i_sum s I). lia.
  - rewrite Ep. exact (i_pan s I).
  - rewrite Er. exact (i_reads s I).
  - rewrite Em. intros M A.
    assert (A' : forall v, v <> j -> wact (W s v) = false).
    { intros v Hv. specialize (A v). rewrite EW in A. destruct (Nat.eqb_spec v j); [contradiction|exact A]. }
    assert (Aj : wact w' = false) by (specialize (A j); rewrite EW, Nat.eqb_refl in A; exact A).
    assert (Fin : wact (W s j) = true \/ wpc (W s j) = WPost [BUnparkMain; BPark] ->
                  pmtok s' = true \/ exists x, wpc (W s' x) = WPost [BUnparkMain; BPark]).
    { intros H. destruct (Hmt2 M Aj H) as [[v [Hv F]]|[T|P]]; [rewrite A' in F by exact Hv; discriminate|left; exact T|].
      right; exists j; rewrite EW, Nat.eqb_refl; exact P. }
    destruct (wact (W s j)) eqn:Ea; [apply Fin; left; reflexivity|].
    destruct (i_mwake s I M) as [T|[x Hx]].
    + intros v. wsplit v j; [exact Ea|apply A'; auto].
    + left; auto.
    + wsplit x j; [apply Fin; right; exact Hx|].
      right. exists x. rewrite EW. destruct (Nat.eqb_spec x j); [contradiction|exact Hx].
Qed.

Lemma base_main s s' :
  Base s -> pws s' = pws s -> ppanic s' = ppanic s -> pmsg s' = pmsg s -> pnet s' = pnet s ->
  (pinj s' = pinj s \/ main_quiet (pmain s) = true) ->
  (main_quiet (pmain s') = true -> forall v, wact (W s v) = false) ->
  (forall a, pmain s' = MAct a -> a = acts s) ->
  (0 < pinj s' -> (exists v, wact (W s v) = true) \/ main_feeds (pmain s') = true) ->
  (forall m n, In (m, n) (preads s') -> m = n) ->
  (pmain s' = MPark -> (forall v, wact (W s v) = false) ->
     pmtok s' = true \/ exists x, wpc (W s x) = WPost [BUnparkMain; BPark]) ->
  Base s'.
Proof.
  intros I Ews Ep Emsg Enet Hinj Hq Hsn Hi Hr Hmw.
  assert (EW : forall x, W s' x = W s x) by (intros x; unfold W; rewrite Ews; reflexivity).
  constructor.
  - rewrite Ews; exact (i_len s I).
  - intros j; rewrite EW; exact (i_pc s I j).
  - intros j; rewrite EW; exact (i_loc s I j).
  - intros j; rewrite EW; exact (i_bit s I j).
  - intros x v; rewrite EW, Ews. exact (i_wact s I x v).
  - intros j; rewrite EW; intros H v Hv. rewrite EW. eapply i_last; eauto.
  - intros j; rewrite EW; intros H. destruct Hinj as [->|Q]; [eapply i_last0; eauto|].
    assert (P : parkish (wpc (W s j)) = false) by (rewrite H; reflexivity).
    pose proof (i_bit s I j P) as A. rewrite (i_main s I Q j) in A. discriminate.
  - intros H v; rewrite EW. apply Hq; auto.
  - intros a H. unfold acts; rewrite Ews. apply Hsn; auto.
  - intros H. destruct (Hi H) as [[v Hv]|F]; [left; exists v; rewrite EW; exact Hv|right; exact F].
  - rewrite Emsg, Ews, Enet. exact (i_sum s I).
  - rewrite Ep; exact (i_pan s I).
  - exact Hr.
  - intros M A. destruct (Hmw M) as [T|[x Hx]]; auto.
    + intros v. rewrite <- EW. apply A.
    + right. exists x. rewrite EW. exact Hx.
Qed.

Lemma unparkers_upd s s' j w' v : j < length (pws s) -> pws s' = lupd (pws s) j w' ->
  unparkers s' v + Nat.b2n (unparks v (wpc (W s j))) = unparkers s v + Nat.b2n (unparks v (wpc w')).
Proof.
  intros Hj E. unfold unparkers. rewrite E.
  apply (list_sum_map_lupd (fun w => Nat.b2n (unparks v (wpc w))) (pws s) j w' wdef Hj).
Qed.

Lemma wake_given_upd s s' j w' v : j < length (pws s) -> pws s' = lupd (pws s) j w' ->
  wake_given s' v + Nat.b2n (unparks v (wpc (W s j))) + (if Nat.eqb v j then Nat.b2n (wtok (W s j)) else 0)
  + Nat.b2n (munparks v (pmain s))
  = wake_given s v + Nat.b2n (unparks v (wpc w')) + (if Nat.eqb v j then Nat.b2n (wtok w') else 0)
  + Nat.b2n (munparks v (pmain s')).
Proof.
  intros Hj E. pose proof (unparkers_upd s s' j w' v Hj E). unfold wake_given. rewrite (W_upd s s' j w' v E Hj).
  wsplit v j; lia.
Qed.

Lemma credit_upd s s' j w' :
  Inv s -> j < length (pws s) -> pws s' = lupd (pws s) j w' -> pmain s' = pmain s -> Base s' ->
  (forall v, unparks v (wpc w') = unparks v (wpc (W s j))) ->
  Nat.b2n (wtok w') + wake_owed (W s j) = Nat.b2n (wtok (W s j)) + wake_owed w' ->
  Inv s'.
Proof.
  intros I Hj Ews Em B Hu Hb. split; [exact B|]. intros v.
  pose proof (i_credit s I v) as C. pose proof (wake_given_upd s s' j w' v Hj Ews) as G.
  rewrite Em, Hu in G. rewrite (W_upd s s' j w' v Ews Hj). revert G. wsplit v j; lia.
Qed.

Lemma credit_main s s' :
  Inv s -> Base s' -> pws s' = pws s -> (forall v, munparks v (pmain s') = munparks v (pmain s)) -> Inv s'.
Proof.
  intros I B Ews Hm. split; [exact B|]. intros v. pose proof (i_credit s I v) as C.
  unfold wake_given, unparkers, W in *. rewrite Ews, Hm. exact C.
Qed.

(* A step of worker j that keeps its bit and its token, neither enters nor leaves the parked states, and
   is about to unpark the same worker as before, if any. *)
Lemma benign s s' j w w' :
  Inv s -> nth_error (pws s) j = Some w ->
  pws s' = lupd (pws s) j w' -> pmain s' = pmain s -> ppanic s' = ppanic s -> preads s' = preads s ->
  wact w' = wact w -> wtok w' = wtok w -> parkish (wpc w') = parkish (wpc w) ->
  (forall v, unparks v (wpc w') = unparks v (wpc w)) ->
  (last_pc (wpc w') = true ->
     (forall v, v <> j -> wact (W s v) = false) /\
     (wpc w' = WPost [BSetAllInactive; BUnparkMain; BPark] -> pinj s' = 0)) ->
  (forall v, wpc w' = WAct v -> v < length (pws s)) ->
  pc_ok (wpc w') -> local_ok w' ->
  (pmsg s' + wcnt w' - pnet s' = pmsg s + wcnt w - pnet s)%Z ->
  (pinj s' = pinj s \/ wact w = true) ->
  (pmtok s = true -> pmtok s' = true) ->
  (wpc w = WPost [BUnparkMain; BPark] -> pmtok s' = true \/ wpc w' = WPost [BUnparkMain; BPark]) ->
  Inv s'.
Proof.
  intros I Hn. destruct (W_nth_error _ _ _ Hn) as [<- Hj].
  intros Ews Em Ep Er Ha Ht Hpk Hu Hnl Hwa Hpc Hloc Hsum Hinj Hmt1 Hmt2.
  apply (credit_upd s s' j w' I Hj Ews Em); [|exact Hu|unfold wake_owed; rewrite Ha, Ht, Hpk; reflexivity].
  apply (base_upd s s' j w' I Hj Ews Em Ep Er Hsum Hinj Hmt1 Hpc Hloc).
  - (* i_bit *) intros P. rewrite Ha. apply (i_bit s I). congruence.
  - exact Hwa.
  - left. exact Ha.
  - (* i_last *) apply Hnl.
  - (* i_last0 *) intros H. apply Hnl; [rewrite H; reflexivity|exact H].
  - (* i_inj *) intros _. rewrite Ha. destruct (wact (W s j)); auto.
  - (* i_mwake *) intros M A [F|F]; [congruence|right; auto].
Qed.

(* the pcs that enter the balance of wake-ups *)
Definition in_balance (pc : ppc) : bool :=
  match pc with WUnpark _ => true | _ => parkish pc end.

Lemma in_balance_false pc : in_balance pc = false -> parkish pc = false /\ forall v, unparks v pc = false.
Proof. destruct pc; try discriminate; auto. Qed.

(* what the invariant asks of a worker that arrives at pc with its bit set *)
Definition may_enter (s : pstate) (j : nat) (pc : ppc) : Prop :=
  match pc with
  | WChk => forall v, v <> j -> wact (W s v) = false
  | WPost [BSetAllInactive; BUnparkMain; BPark] => (forall v, v <> j -> wact (W s v) = false) /\ pinj s = 0
  | WAct v => v < length (pws s)
  | WPre [BUpdate] | WPre [] | WPost [] | WPost [BBeginSearch]
  | WTry | WSearch | WExt | WRun | WTask | WSched1 | WSched2 => True
  | _ => False
  end.

Lemma may_enter_spec s j pc : may_enter s j pc ->
  in_balance pc = false /\ pc_ok pc /\
  (last_pc pc = true -> (forall v, v <> j -> wact (W s v) = false) /\
                        (pc = WPost [BSetAllInactive; BUnparkMain; BPark] -> pinj s = 0)) /\
  (forall v, pc = WAct v -> v < length (pws s)).
Proof.
  destruct pc as [[|[] [|]]| | |[|[] [|[] [|[] [|]]]]| | | | | | |u|u]; cbn; try contradiction; intros H.
  all: refine (conj eq_refl (conj _ (conj _ _))); [auto 6|intros L; try discriminate L|intros v E; try discriminate E].
  - (* WChk *) split; [exact H|discriminate].
  - (* WPost [BSetAllInactive; ..] *) split; [apply H|intros _; apply H].
  - (* WAct *) injection E as <-. exact H.
Qed.

(* m, n: the shared count and the ghost net after the step *)
Lemma active_step s j {w pc w'} m n :
  Inv s -> nth_error (pws s) j = Some w -> wpc w = pc -> in_balance pc = false ->
  wact w' = wact w -> wtok w' = wtok w -> (m + wcnt w' - n = pmsg s + wcnt w - pnet s)%Z ->
  may_enter s j (wpc w') -> local_ok w' ->
  Inv (set_net (set_msg (set_w s j w') m) n).
Proof.
  intros I Hn Epc B Ha Ht Hc E L. destruct (in_balance_false _ B) as [P U].
  destruct (may_enter_spec s j _ E) as (B' & K & La & Wa). destruct (in_balance_false _ B') as [P' U'].
  apply (benign s _ j w w' I Hn); try reflexivity; try assumption.
  - (* parkish *) rewrite Epc, P, P'. reflexivity.
  - (* unparks *) intros v. rewrite Epc, U, U'. reflexivity.
  - (* the injector *) left. reflexivity.
  - (* the main token *) intros T. exact T.
  - (* i_mwake *) rewrite Epc. intros F. rewrite F in P. discriminate P.
Qed.

Lemma busy_step s j {w pc w'} :
  Inv s -> nth_error (pws s) j = Some w -> wpc w = pc -> in_balance pc = false ->
  wact w' = wact w -> wtok w' = wtok w -> wcnt w' = wcnt w -> may_enter s j (wpc w') -> local_ok w' ->
  Inv (set_w s j w').
Proof.
  intros I Hn Epc B Ha Ht Hc. apply (active_step s j (pmsg s) (pnet s) I Hn Epc B Ha Ht).
  rewrite Hc. reflexivity.
Qed.

Lemma inv_add_ran s : Inv s -> Inv (add_ran s).
Proof. intros [[] C]. split; [constructor|]; assumption. Qed.

Lemma inv_add_sched s : Inv s -> Inv (add_sched s).
Proof. intros [[] C]. split; [constructor|]; assumption. Qed.

Lemma inv_set_inj s j {w pc} n :
  Inv s -> nth_error (pws s) j = Some w -> wpc w = pc -> parkish pc = false -> last_pc pc = false -> Inv (set_inj s n).
Proof.
  intros I Hn Epc P L. destruct (W_nth_error _ _ _ Hn) as [<- _]. rewrite <- Epc in P, L.
  pose proof (i_bit s I j P) as A.
  assert (NL : forall x, last_pc (wpc (W s x)) = false).
  { intros x. wsplit x j; [exact L|apply (active_no_last s j x I A); assumption]. }
  apply (credit_main s _ I); [|reflexivity|reflexivity]. destruct I as [[] _].
  constructor; try assumption.
  - intros x E. pose proof (NL x) as F. change (W (set_inj s n) x) with (W s x) in E. rewrite E in F. discriminate F.
  - intros _. left. exists j. exact A.
Qed.

Lemma base_set_tok s v x b : Base s -> nth_error (pws s) v = Some x -> Base (set_w s v (set_tok x b)).
Proof.
  intros I Hv. destruct (W_nth_error _ _ _ Hv) as [<- Hlv].
  apply (base_upd s _ v (set_tok (W s v) b) I Hlv).
  1-5: reflexivity.
  - left. reflexivity.
  - intros T. exact T.
  - exact (i_pc s I v).
  - exact (i_loc s I v).
  - exact (i_bit s I v).
  - exact (i_wact s I v).
  - left. reflexivity.
  - exact (i_last s I v).
  - exact (i_last0 s I v).
  - (* i_inj *) intros _. cbn [wact set_tok]. destruct (wact (W s v)); auto.
  - (* i_mwake *) intros _ A [F|F]; [cbn [wact set_tok] in A; congruence|right; right; exact F].
Qed.

Lemma base_set_act s v x :
  Base s -> nth_error (pws s) v = Some x -> wact x = false ->
  main_quiet (pmain s) = false -> (forall y, last_pc (wpc (W s y)) = false) ->
  Base (set_w s v (set_act x true)).
Proof.
  intros I Hv Ax Q NL. destruct (W_nth_error _ _ _ Hv) as [<- Hlv]. pose proof (NL v) as Lv.
  apply (base_upd s _ v (set_act (W s v) true) I Hlv).
  1-5: reflexivity.
  - left. reflexivity.
  - intros T. exact T.
  - exact (i_pc s I v).
  - exact (i_loc s I v).
  - reflexivity.
  - exact (i_wact s I v).
  - right. right. exact (conj Q NL).
  - (* i_last *) cbn [wpc set_act]. rewrite Lv. discriminate.
  - (* i_last0 *) cbn [wpc set_act]. intros E. rewrite E in Lv. discriminate Lv.
  - left. reflexivity.
  - (* i_mwake *) intros _ F. discriminate F.
Qed.

Lemma base_set_pc s j w' :
  Base s -> j < length (pws s) -> wact (W s j) = true -> wact w' = true -> wcnt w' = wcnt (W s j) ->
  pc_ok (wpc w') -> local_ok w' -> last_pc (wpc w') = false -> (forall v, wpc w' <> WAct v) ->
  Base (set_w s j w').
Proof.
  intros I Hj A A' Hc P L NL NA. apply (base_upd s _ j w' I Hj).
  1-4: reflexivity.
  - rewrite Hc. reflexivity.
  - left. reflexivity.
  - intros T. exact T.
  - exact P.
  - exact L.
  - intros _. exact A'.
  - intros v E. destruct (NA v E).
  - right. left. exact A.
  - rewrite NL. discriminate.
  - intros E. rewrite E in NL. discriminate NL.
  - left. exact A'.
  - intros _ F. congruence.
Qed.

(* Worker j moves between pcs at which it is not parked while worker v, its pc unchanged, changes with it;
   the balance of v is the last premise. *)
Lemma credit_upd2 s j v w x pc' x' :
  Inv s -> nth_error (pws s) j = Some w -> nth_error (pws s) v = Some x -> v <> j ->
  Base (set_w (set_w s v x') j (set_pc w pc')) ->
  wpc x' = wpc x -> parkish (wpc w) = false -> parkish pc' = false ->
  (forall u, u <> v -> unparks u pc' = unparks u (wpc w)) ->
  Nat.b2n (wtok x') + Nat.b2n (unparks v pc') + wake_owed x = Nat.b2n (wtok x) + Nat.b2n (unparks v (wpc w)) + wake_owed x' ->
  Inv (set_w (set_w s v x') j (set_pc w pc')).
Proof.
  intros I Hn Hv Hvj B Ex Pw Pw' Hu Hb. split; [exact B|]. intros u.
  destruct (W_nth_error _ _ _ Hn) as [HW Hj]. destruct (W_nth_error _ _ _ Hv) as [HWv Hlv].
  set (s1 := set_w s v x'). destruct (W_set_w_other s v x j w Hn Hv Hvj x') as [Hj1 HW1]. fold s1 in Hj1, HW1.
  set (s2 := set_w s1 j (set_pc w pc')). pose proof (i_credit s I u) as C.
  pose proof (wake_given_upd s s1 v x' u Hlv eq_refl) as G1.
  pose proof (wake_given_upd s1 s2 j (set_pc w pc') u Hj1 eq_refl) as G2.
  rewrite HW1 in G2. rewrite HWv, Ex in G1.
  rewrite (W_upd s1 s2 j _ u eq_refl Hj1), (W_upd s s1 v _ u eq_refl Hlv).
  cbn [pmain s1 s2 set_w set_ws set_pc wpc wtok] in G1, G2. revert C G1 G2. wsplit u j; [|wsplit u v].
  - (* j is owed nothing before or after *)
    destruct (Nat.eqb_spec j v); [congruence|]. rewrite HW, (Hu j) by congruence.
    unfold wake_owed. cbn [wact wpc set_pc]. rewrite Pw, Pw'. lia.
  - rewrite HWv. lia.
  - rewrite (Hu u) by assumption. lia.
Qed.

(* the activator sets the bit of the inactive worker v and commits to unparking it *)
Lemma flip_by_worker s j v w x :
  Inv s -> nth_error (pws s) j = Some w -> nth_error (pws s) v = Some x -> wpc w = WAct v -> wact x = false ->
  Inv (set_w (set_w s v (set_act x true)) j (set_pc w (WUnpark v))).
Proof.
  intros I Hn Hv Hpc Ax. destruct (W_nth_error _ _ _ Hn) as [HW Hj]. destruct (W_nth_error _ _ _ Hv) as [HWv Hlv].
  assert (Aj : wact (W s j) = true) by (apply (i_bit s I); rewrite HW, Hpc; reflexivity).
  assert (Hvj : v <> j) by (intros ->; congruence).
  assert (NL : forall y, last_pc (wpc (W s y)) = false).
  { intros y. wsplit y j; [rewrite HW, Hpc; reflexivity|apply (active_no_last s j y I Aj); assumption]. }
  set (s1 := set_w s v (set_act x true)).
  pose proof (base_set_act s v x I Hv Ax (active_not_quiet s j I Aj) NL) as B1. fold s1 in B1.
  destruct (W_set_w_other s v x j w Hn Hv Hvj (set_act x true)) as [Hj1 HW1]. fold s1 in Hj1, HW1.
  pose proof (i_loc s I j) as L. pose proof (inactive_parkish s v I) as Pv. rewrite HW in *. rewrite HWv in Pv.
  apply (credit_upd2 s j v w x (WUnpark v) (set_act x true) I Hn Hv Hvj); rewrite ?Hpc; try reflexivity.
  - apply (base_set_pc s1 j _ B1 Hj1); rewrite ?HW1; [exact Aj|exact Aj|reflexivity|exact Logic.I| |reflexivity|discriminate].
    unfold local_ok in *. rewrite Hpc in L. exact L.
  - intros u Hu. apply Nat.eqb_neq, Hu.
  - (* v is now owed a wake-up, and j is about to give it *)
    unfold wake_owed. cbn. rewrite Ax, (Pv Ax), Nat.eqb_refl. cbn. lia.
Qed.

Lemma flip_by_main s v x a :
  Inv s -> pmain s = MAct a -> nth_error (pws s) v = Some x -> wact x = false ->
  Inv (set_main (set_w s v (set_act x true)) (MUnpark v)).
Proof.
  intros I Em Hv Ax. destruct (W_nth_error _ _ _ Hv) as [HWv Hlv].
  assert (Idle : forall y, wact (W s y) = false) by (apply (i_main s I); rewrite Em; reflexivity).
  pose proof (inactive_parkish s v I (Idle v)) as Pv. rewrite HWv in Pv.
  assert (B1 : Base (set_main s (MUnpark v))).
  { apply (base_main s _ I); try reflexivity; try discriminate; auto; exact (i_reads s I). }
  split.
  - apply (base_set_act _ v x B1 Hv Ax eq_refl). intros y. apply (idle_no_last s y I Idle).
  - intros u. pose proof (i_credit s I u) as C.
    set (s2 := set_main (set_w s v (set_act x true)) (MUnpark v)).
    pose proof (wake_given_upd s s2 v (set_act x true) u Hlv eq_refl) as G.
    rewrite HWv, Em in G. rewrite (W_upd s s2 v (set_act x true) u eq_refl Hlv).
    change (pmain s2) with (MUnpark v) in G. cbn [set_act wpc wtok munparks] in G. revert C G.
    wsplit u v; [|lia].
    rewrite HWv. unfold wake_owed. cbn [wact wpc set_act]. rewrite Ax, Pv. cbn. lia.
Qed.

(* ... and then hands the token over: worker_unparkers[v].unpark() *)
Lemma unpark_by_worker s j v w x :
  Inv s -> nth_error (pws s) j = Some w -> nth_error (pws s) v = Some x -> wpc w = WUnpark v ->
  Inv (set_w (set_w s v (set_tok x true)) j (set_pc w WTask)).
Proof.
  intros I Hn Hv Hpc. destruct (W_nth_error _ _ _ Hn) as [HW Hj]. destruct (W_nth_error _ _ _ Hv) as [HWv Hlv].
  assert (Hpj : wpc (W s j) = WUnpark v) by (rewrite HW; exact Hpc).
  destruct (unpark_owed s j v I Hpj) as (_ & Pv & Tv & _).
  assert (Hvj : v <> j) by (intros ->; rewrite Hpj in Pv; discriminate).
  set (s1 := set_w s v (set_tok x true)). pose proof (base_set_tok s v x true I Hv) as B1. fold s1 in B1.
  destruct (W_set_w_other s v x j w Hn Hv Hvj (set_tok x true)) as [Hj1 HW1]. fold s1 in Hj1, HW1.
  assert (Aj : wact (W s j) = true) by (apply (i_bit s I); rewrite Hpj; reflexivity).
  pose proof (i_loc s I j) as L. rewrite HW in *. rewrite HWv in Tv.
  apply (credit_upd2 s j v w x WTask (set_tok x true) I Hn Hv Hvj); rewrite ?Hpc; try reflexivity.
  - apply (base_set_pc s1 j _ B1 Hj1); rewrite ?HW1; [exact Aj|exact Aj|reflexivity|exact Logic.I| |reflexivity|discriminate].
    unfold local_ok in *. rewrite Hpc in L. exact L.
  - intros u Hu. symmetry. apply Nat.eqb_neq, Hu.
  - (* the wake-up j was about to give is now the token of v *)
    unfold wake_owed. cbn. rewrite Tv, Nat.eqb_refl. reflexivity.
Qed.

Lemma unpark_by_main s v x :
  Inv s -> pmain s = MUnpark v -> nth_error (pws s) v = Some x ->
  Inv (set_main (set_w s v (set_tok x true)) MLoop).
Proof.
  intros I Em Hv. destruct (W_nth_error _ _ _ Hv) as [HWv Hlv].
  destruct (munpark_owed s v I Em) as (Av & _ & Tv). rewrite HWv in Av, Tv.
  pose proof (base_set_tok s v x true I Hv) as B1.
  split.
  - apply (base_main _ _ B1); try reflexivity; try discriminate; auto; [|exact (i_reads _ B1)].
    intros _. left. exists v. rewrite W_set_w, Nat.eqb_refl by exact Hlv. exact Av.
  - intros u. pose proof (i_credit s I u) as C.
    set (s2 := set_main (set_w s v (set_tok x true)) MLoop).
    pose proof (wake_given_upd s s2 v (set_tok x true) u Hlv eq_refl) as G.
    rewrite HWv, Em in G. rewrite (W_upd s s2 v (set_tok x true) u eq_refl Hlv).
    change (pmain s2) with MLoop in G. cbn [set_tok wpc wtok munparks] in G. revert C G.
    wsplit u v; [|lia].
    rewrite HWv. unfold wake_owed. cbn [wact wpc set_tok]. rewrite Tv. cbn. lia.
Qed.

(* The main thread moves on without starting or finishing an unpark.  Premises: the four fields it leaves alone;
   munparks; the injector; then i_main, i_snap, i_inj, i_reads, i_mwake of s'. *)
Lemma main_frame s s' :
  Inv s -> pws s' = pws s -> ppanic s' = ppanic s -> pmsg s' = pmsg s -> pnet s' = pnet s ->
  (forall v, munparks v (pmain s') = munparks v (pmain s)) ->
  (pinj s' = pinj s \/ main_quiet (pmain s) = true) ->
  (main_quiet (pmain s') = true -> forall v, wact (W s v) = false) ->
  (forall a, pmain s' = MAct a -> a = acts s) ->
  (0 < pinj s' -> (exists v, wact (W s v) = true) \/ main_feeds (pmain s') = true) ->
  (forall m n, In (m, n) (preads s') -> m = n) ->
  (pmain s' = MPark -> (forall v, wact (W s v) = false) ->
     pmtok s' = true \/ exists x, wpc (W s x) = WPost [BUnparkMain; BPark]) ->
  Inv s'.
Proof. intros I Ews Ep Emsg Enet Hm. intros. apply (credit_main s s' I); auto. apply (base_main s s' I); auto. Qed.

(* try_set_worker_inactive -> true, or set_all_workers_inactive by the only active worker *)
Lemma clear_bit s j {w pc w'} :
  Inv s -> nth_error (pws s) j = Some w -> wpc w = pc -> in_balance pc = false ->
  wact w' = false -> wtok w' = wtok w -> wcnt w' = wcnt w -> parkish (wpc w') = true -> pc_ok (wpc w') -> local_ok w' ->
  ((exists v, v <> j /\ wact (W s v) = true) \/ (pinj s = 0 /\ wpc w' = WPost [BUnparkMain; BPark])) ->
  Inv (set_w s j w').
Proof.
  intros I Hn Epc B Ha' Ht Ec Hp' Hpc Hloc Hoth. destruct (W_nth_error _ _ _ Hn) as [HW Hj].
  destruct (in_balance_false _ B) as [Hnp Hnu]. rewrite <- Epc, <- HW in Hnp, Hnu. rewrite <- HW in Ht, Ec.
  pose proof (i_bit s I j Hnp) as Ha.
  assert (Tj : wtok (W s j) = false).
  { destruct (wtok (W s j)) eqn:E; auto. destruct (tok_owed s j I E). congruence. }
  apply (credit_upd s (set_w s j w') j w' I Hj eq_refl eq_refl).
  - apply (base_upd s _ j w' I Hj).
    1-4: reflexivity.
    + rewrite Ec. reflexivity.
    + left. reflexivity.
    + intros T. exact T.
    + exact Hpc.
    + exact Hloc.
    + (* i_bit *) congruence.
    + (* i_wact *) intros v E. rewrite E in Hp'. discriminate Hp'.
    + right. left. exact Ha.
    + (* i_last *) intros L. rewrite (last_not_parkish _ L) in Hp'. discriminate Hp'.
    + (* i_last0 *) intros E. rewrite E in Hp'. discriminate Hp'.
    + (* i_inj *) intros H. destruct Hoth as [F|[F _]]; [auto|cbn in H; lia].
    + (* i_mwake *) intros _ _ _. destruct Hoth as [F|[_ F]]; auto.
  - intros v. rewrite Hnu. destruct (wpc w'); try reflexivity. discriminate Hp'.
  - unfold wake_owed. rewrite Ht, Tj, Ha', Hnp, andb_false_r. reflexivity.
Qed.

(* parker.park() returns: the token is consumed *)
Lemma park_step s j w :
  Inv s -> nth_error (pws s) j = Some w -> wpc w = WPost [BPark] -> wtok w = true ->
  Inv (set_w s j (set_pc (set_tok w false) (WPost []))).
Proof.
  intros I Hn Hpc Ht. destruct (W_nth_error _ _ _ Hn) as [HW Hj].
  destruct (tok_owed s j I) as [A _]; [rewrite HW; exact Ht|].
  pose proof (i_loc s I j) as L. rewrite HW in *. unfold local_ok in L. rewrite Hpc in L.
  apply (credit_upd s (set_w s j _) j _ I Hj eq_refl eq_refl); rewrite ?HW.
  - apply (base_set_pc s j _ I Hj); rewrite ?HW; [exact A|exact A|reflexivity|right; left; reflexivity|exact L|reflexivity|discriminate].
  - rewrite Hpc. reflexivity.
  - unfold wake_owed. cbn. rewrite Ht, A, Hpc. reflexivity.
Qed.
