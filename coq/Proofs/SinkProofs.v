(* ports/sink (Model/Sink.v): the event buffer answers like a cursor into the log of accepted writes, at most
   cap entries behind its end; the event slot holds the last accepted write since the last read. *)
Require Import NX.Base.Prelude NX.Model.Sink.

Section SinkProofs.
  Variable V : Type.

  Record BR (b : ebuf V) (s : lspec V) : Prop := {
    BR_cap : bcap b = lcap s;
    BR_open : bopen b = lopen s;
    BR_q : bq b = skipn (lcur s) (llog s);
    BR_cur : lcur s <= length (llog s);
    BR_len : length (llog s) - lcur s <= lcap s
  }.

  Lemma skipn_app_le {A} (l1 l2 : list A) n : n <= length l1 ->
    skipn n (l1 ++ l2) = skipn n l1 ++ l2.
  Proof. intros H. rewrite skipn_app. replace (n - length l1) with 0 by lia. reflexivity. Qed.

  Lemma tl_skipn {A} (l : list A) n : tl (skipn n l) = skipn (S n) l.
  Proof.
    revert n; induction l as [|x r IH]; intros n.
    - destruct n; reflexivity.
    - destruct n as [|n]; [reflexivity|]. cbn [skipn]. rewrite IH. reflexivity.
  Qed.

  Lemma skipn_nth_cons {A} (l : list A) n :
    skipn n l = match nth_error l n with Some x => x :: skipn (S n) l | None => [] end.
  Proof.
    revert n; induction l as [|x r IH]; intros [|n]; cbn [skipn nth_error]; auto.
    rewrite IH. destruct (nth_error r n); reflexivity.
  Qed.

  Lemma BR_new cap o : 1 <= cap -> BR (@ebuf_new V cap o) (@lspec_new V cap o).
  Proof. intros H; split; cbn; auto; lia. Qed.

  Lemma buf_step_refines b s o :
    1 <= lcap s -> BR b s ->
    snd (ebuf_step b o) = snd (lspec_step s o) /\ BR (fst (ebuf_step b o)) (fst (lspec_step s o)).
  Proof.
    intros Hc [H1 H2 H3 H4 H5].
    destruct o as [v| | |]; cbn [ebuf_step lspec_step].
    - unfold ebuf_write. rewrite H2. destruct (lopen s) eqn:Eo; cbn [fst snd].
      2:{ split; auto. split; auto. congruence. }
      split; auto.
      rewrite H3, skipn_length, H1.
      destruct (Nat.eqb_spec (length (llog s) - lcur s) (lcap s)) as [E|E];
        split; cbn [bcap bopen bq lcap lopen llog lcur]; auto;
        try (rewrite app_length; cbn [length]; lia).
      + rewrite tl_skipn. rewrite skipn_app_le by lia. reflexivity.
      + rewrite skipn_app_le by lia. reflexivity.
    - unfold ebuf_next. rewrite H3. rewrite skipn_nth_cons.
      destruct (nth_error (llog s) (lcur s)) as [x|] eqn:E; cbn [fst snd].
      + split; auto. assert (lcur s < length (llog s)) by (apply nth_error_Some; congruence).
        split; cbn [bcap bopen bq lcap lopen llog lcur]; auto; lia.
      + split; [reflexivity|]. split; auto.
    - cbn [fst snd]. split; auto. split; cbn; auto.
    - cbn [fst snd]. split; auto. split; cbn; auto.
  Qed.

  Lemma lspec_step_cap (s : lspec V) o : lcap (fst (lspec_step s o)) = lcap s.
  Proof.
    destruct o; cbn [lspec_step]; try reflexivity.
    - destruct (lopen s); reflexivity.
    - destruct (nth_error _ _); reflexivity.
  Qed.

  Lemma buf_run_refines ops : forall b s, 1 <= lcap s -> BR b s ->
    ebuf_run b ops = lspec_run s ops /\ BR (ebuf_exec b ops) (lspec_exec s ops) /\
    lcap (lspec_exec s ops) = lcap s.
  Proof.
    induction ops as [|o r IH]; intros b s Hc HR; cbn [ebuf_run lspec_run ebuf_exec lspec_exec]; auto.
    destruct (buf_step_refines b s o Hc HR) as [E1 E2].
    pose proof (lspec_step_cap s o) as Ec.
    destruct (IH _ _ ltac:(rewrite Ec; exact Hc) E2) as (R1 & R2 & R3).
    destruct (ebuf_step b o) as [b' x], (lspec_step s o) as [s' y]. cbn [fst snd] in *.
    subst y. rewrite R1, R3. auto.
  Qed.

  Theorem ebuf_refines cap o ops : 1 <= cap ->
    ebuf_run (@ebuf_new V cap o) ops = lspec_run (@lspec_new V cap o) ops.
  Proof. intros H. apply buf_run_refines; [exact H|apply BR_new; exact H]. Qed.

  (* The buffer content in every reachable state: the last |bq| accepted
     writes, never more than cap of them. *)
  Theorem ebuf_content cap o ops : 1 <= cap ->
    let b := ebuf_exec (@ebuf_new V cap o) ops in
    let s := lspec_exec (@lspec_new V cap o) ops in
    bq b = skipn (lcur s) (llog s) /\ lcur s <= length (llog s) /\
    length (llog s) - lcur s <= cap /\ bopen b = lopen s.
  Proof.
    intros H b s.
    destruct (buf_run_refines ops _ (lspec_new cap o) H (BR_new cap o H)) as (_ & [H1 H2 H3 H4 H5] & E).
    fold s in H3, H4, H5, E. fold b in H2, H3. rewrite E in H5. auto.
  Qed.

  Lemma lspec_log_grows (s : lspec V) o :
    exists ext, llog (fst (lspec_step s o)) = llog s ++ ext /\
      (ext = [] \/ exists v, o = SWrite v /\ lopen s = true /\ ext = [v]).
  Proof.
    destruct o as [v| | |]; cbn [lspec_step].
    - destruct (lopen s) eqn:E; cbn [fst llog].
      + exists [v]. split; auto. right. exists v; auto.
      + exists []. rewrite app_nil_r; auto.
    - destruct (nth_error _ _); exists []; cbn; rewrite app_nil_r; auto.
    - exists []; cbn; rewrite app_nil_r; auto.
    - exists []; cbn; rewrite app_nil_r; auto.
  Qed.

  Lemma lspec_cur_mono (s : lspec V) o : lcur s <= lcur (fst (lspec_step s o)).
  Proof.
    destruct o as [v| | |]; cbn [lspec_step]; try (cbn; lia).
    - destruct (lopen s); cbn [fst lcur]; [|lia]. destruct (Nat.eqb _ _); lia.
    - destruct (nth_error _ _); cbn; lia.
  Qed.

  Lemma lspec_read (s : lspec V) x s' : lspec_step s SRead = (s', Some x) ->
    nth_error (llog s) (lcur s) = Some x /\ lcur s' = S (lcur s) /\ llog s' = llog s.
  Proof.
    cbn [lspec_step]. destruct (nth_error _ _) eqn:E; intros H; inversion H; subst; cbn; auto.
  Qed.

  (* A write is dropped iff the sink is closed; an accepted write discards
     exactly the oldest unread entry, and only when cap entries are unread. *)
  Lemma lspec_write (s : lspec V) v :
    let s' := fst (lspec_step s (SWrite v)) in
    (lopen s = false -> s' = s) /\
    (lopen s = true -> llog s' = llog s ++ [v] /\
       lcur s' = (if Nat.eqb (length (llog s) - lcur s) (lcap s) then S (lcur s) else lcur s)).
  Proof. cbn [lspec_step]. destruct (lopen s); cbn; split; intros; auto; discriminate. Qed.

  (* value held = the last accepted write since the last read *)
  Fixpoint slot_spec (o : bool) (cur : option V) (ops : list (sink_op V)) : list (option V) :=
    match ops with
    | [] => []
    | SWrite v :: r => None :: slot_spec o (if o then Some v else cur) r
    | SRead :: r => cur :: slot_spec o None r
    | SOpen :: r => None :: slot_spec true cur r
    | SClose :: r => None :: slot_spec false cur r
    end.

  Theorem eslot_refines ops : forall s,
    eslot_run s ops = slot_spec (sopen s) (sval s) ops.
  Proof.
    induction ops as [|o r IH]; intros s; cbn [eslot_run slot_spec]; auto.
    destruct o as [v| | |]; cbn [eslot_step]; cbn [eslot_next]; f_equal; rewrite IH.
    - unfold eslot_write. destruct (sopen s) eqn:Eo; cbn [sopen sval]; rewrite ?Eo; reflexivity.
    - reflexivity.
    - reflexivity.
    - reflexivity.
  Qed.
End SinkProofs.
