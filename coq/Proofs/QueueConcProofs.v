(* The concurrent queue model: the invariant holds in every reachable state, and what it gives. *)
Require Import NX.Base.Prelude NX.Base.ListX NX.Model.QueueConc NX.Proofs.QueueConcInv NX.Proofs.QueueConcSteps.

Section Top.
  Variable V : Type.
  Notation cstate := (cstate V).

  Lemma cq_step_inv (s s' : cstate) t b : CInv V s -> cq_step s t b = Some s' -> CInv V s'.
  Proof.
    intros HI Hstep. destruct t as [|[|i]]; cbn [cq_step] in Hstep.
    - eapply cons_step_inv; eauto.
    - injection Hstep as <-. destruct HI as [C1 C2 C3 C4 C5 C6 C7 C8 C9 C10 C11]. constructor; assumption.
    - destruct (nth_error (prods s) i) as [p|] eqn:Ei; [|discriminate]. eapply prod_step_inv; eauto.
  Qed.

  Lemma cq_run_inv sched : forall s : cstate, CInv V s -> CInv V (cq_run s sched).
  Proof.
    induction sched as [|[t b] r IH]; intros s HI; [exact HI|]. cbn [cq_run].
    destruct (cq_step s t b) as [s'|] eqn:E; [apply IH; eapply cq_step_inv; eauto|apply IH; exact HI].
  Qed.

  Lemma cq_init_inv capacity (pv : list (list V)) npops : 1 <= capacity -> CInv V (cq_init capacity pv npops).
  Proof.
    intros Hc. constructor; cbn [cq_init cap slots log enq cerr deq prods con popped].
    - exact Hc.
    - rewrite map_length, seqn_length. reflexivity.
    - reflexivity.
    - reflexivity.
    - lia.
    - unfold rel. cbn. lia.
    - intros m Hm. unfold rel in Hm. cbn in Hm. unfold slot_ok, published_ok. cbn [cq_init enq deq log con cpc].
      split; [intros Hlt; lia|intros _].
      unfold slot_at. cbn [cap slots cq_init]. rewrite Nat.mod_small by lia.
      apply nth_error_nth. rewrite nth_error_map, nth_error_seqn.
      destruct (Nat.ltb_spec m capacity); [reflexivity|lia].
    - intros i p Hp. rewrite nth_error_map in Hp. destruct (nth_error pv i) as [vs|]; [|discriminate].
      injection Hp as <-. unfold prod_ok, in_flight. cbn.
      split; [lia|]. split; [reflexivity|]. split; [intros Hx; lia|]. split; [intros Hx; discriminate|].
      split; [intros [Hx|Hx]; discriminate|]. split; [intros n v []|exact I].
    - intros i j p q Hp Hq _ Fp. rewrite nth_error_map in Hp. destruct (nth_error pv i) as [vs|]; [|discriminate].
      injection Hp as <-. destruct Fp as [Hx|Hx]; discriminate.
    - unfold con_ok. cbn. split; [lia|]. split; [intros Hx; lia|]. split; [intros Hx; discriminate|intros Hx; lia].
    - reflexivity.
  Qed.

  Theorem cq_reachable_inv capacity (pv : list (list V)) npops sched :
    1 <= capacity -> CInv V (cq_run (cq_init capacity pv npops) sched).
  Proof. intros Hc. apply cq_run_inv. apply cq_init_inv. exact Hc. Qed.

  (* FIFO, exactly once, nothing invented: what the consumer has taken is a prefix of the values
     in the order in which they were accepted *)
  Theorem cq_fifo (s : cstate) : CInv V s -> exists k, k <= length (log s) /\ popped s = firstn k (log s).
  Proof.
    intros HI. exists (taken V s). split; [|exact (ci_popped V s HI)].
    pose proof (ci_log V s HI). pose proof (ci_deq V s HI). pose proof (taken_le_deq V s). lia.
  Qed.

  (* bounded: at most cap messages are accepted and not yet handed back by the consumer *)
  Theorem cq_bounded (s : cstate) : CInv V s -> enq s - rel V s <= cap s /\ rel V s <= deq s <= enq s.
  Proof.
    intros HI. pose proof (ci_full V s HI). pose proof (ci_deq V s HI). pose proof (rel_le_deq V s). lia.
  Qed.

  (* the messages accepted from one producer sit in the log in the order in which it sent them *)
  Theorem cq_producer_order (s : cstate) i p :
    CInv V s -> nth_error (prods s) i = Some p ->
    sdesc (map fst (ptix p)) /\ forall n v, In (n, v) (ptix p) -> nth_error (log s) n = Some v.
  Proof.
    intros HI Hp. destruct (ci_prod V s HI i p Hp) as (_ & _ & _ & _ & _ & P6 & P7). split; assumption.
  Qed.

  (* no "unreachable!()" arm and no failed debug assertion *)
  Theorem cq_no_unreachable (s : cstate) : CInv V s -> cerr s = 0.
  Proof. intros HI. exact (ci_err V s HI). Qed.

  (* len() is the number of messages held whenever the consumer is between two operations (producers may be
     in flight: a message counts from the moment its position is claimed) *)
  Theorem cq_len_exact (s : cstate) :
    CInv V s -> cpc (con s) = 0 -> cq_len s = length (log s) - length (popped s) /\ cq_len s <= cap s.
  Proof.
    intros HI Hc. pose proof (ci_log V s HI). pose proof (ci_deq V s HI). pose proof (ci_full V s HI) as Hf.
    rewrite (rel_low V s) in Hf by lia. rewrite (ci_popped V s HI), (taken_off_3 V s), firstn_length by lia.
    unfold cq_len. lia.
  Qed.

  Lemma cons_step_obs (s s' : cstate) :
    cons_step s = Some s' ->
    log s' = log s /\ closed s' = closed s /\
    (cout (con s') = CrClosed :: cout (con s) -> cpc (con s) = 2 /\ closed s = true /\ enq s = cdeq (con s)).
  Proof.
    intros Hstep. unfold cons_step in Hstep.
    assert (Hquiet : forall s1 : cstate, log s1 = log s -> closed s1 = closed s -> cout (con s1) = cout (con s) ->
              log s1 = log s /\ closed s1 = closed s /\
              (cout (con s1) = CrClosed :: cout (con s) -> cpc (con s) = 2 /\ closed s = true /\ enq s = cdeq (con s))).
    { intros s1 El Ec Eo. split; [exact El|]. split; [exact Ec|]. rewrite Eo. intros E.
      apply (f_equal (@length _)) in E. cbn in E. lia. }
    destruct (cpc (con s)) as [|[|[|[|[|[|n]]]]]]; try discriminate.
    - destruct (cleft (con s)); [discriminate|]. injection Hstep as <-. apply Hquiet; reflexivity.
    - injection Hstep as <-. apply Hquiet; reflexivity.
    - destruct (Nat.eqb _ _); injection Hstep as <-; [|apply Hquiet; reflexivity].
      split; [reflexivity|]. split; [reflexivity|]. cbn. intros Hout.
      destruct (closed s); [|discriminate]. destruct (Nat.eqb_spec (enq s) (cdeq (con s))); [auto|discriminate].
    - destruct (slot_at s _) as [st [|v|]]; injection Hstep as <-; [apply Hquiet; reflexivity| |apply Hquiet; reflexivity].
      split; [reflexivity|]. split; [reflexivity|discriminate].
    - destruct (slot_at s _) as [st ce]; injection Hstep as <-. apply Hquiet; reflexivity.
    - destruct (slot_at s _) as [st ce]; injection Hstep as <-. apply Hquiet; reflexivity.
  Qed.

  (* after close() nothing more is accepted *)
  Theorem cq_closed_no_accept (s s' : cstate) t b : closed s = true -> cq_step s t b = Some s' -> log s' = log s /\ closed s' = true.
  Proof.
    intros Hcl Hstep. destruct t as [|[|i]]; cbn [cq_step] in Hstep.
    - destruct (cons_step_obs s s' Hstep) as (El & Ec & _). rewrite Ec. auto.
    - injection Hstep as <-. auto.
    - destruct (nth_error (prods s) i) as [p|]; [|discriminate]. unfold prod_step in Hstep.
      destruct (pvals p) as [|v rest]; [discriminate|].
      destruct (ppc p) as [|[|[|[|[|n]]]]]; try discriminate.
      + injection Hstep as <-. auto.
      + destruct (pclo p); injection Hstep as <-; auto.
      + (* the compare-exchange compares the closed flag too *)
        rewrite Hcl in Hstep. rewrite andb_false_r in Hstep. cbn [andb] in Hstep.
        destruct (Nat.eqb _ _); [injection Hstep as <-; auto|].
        destruct (Nat.ltb _ _); injection Hstep as <-; auto.
      + destruct (slot_at s _) as [st ce]; injection Hstep as <-; auto.
      + destruct (slot_at s _) as [st ce]; injection Hstep as <-; auto.
  Qed.

  (* Closed is reported to the consumer only when the queue is closed and every accepted message
     has been delivered: messages already accepted remain receivable *)
  Theorem cq_closed_only_when_drained (s s' : cstate) :
    CInv V s -> cons_step s = Some s' -> cout (con s') = CrClosed :: cout (con s) ->
    closed s = true /\ popped s = log s.
  Proof.
    intros HI Hstep Hout. destruct (cons_step_obs s s' Hstep) as (_ & _ & H). destruct (H Hout) as (Hpc & Hcl & Ee).
    split; [exact Hcl|]. destruct (ci_con V s HI) as (_ & K2 & _). specialize (K2 ltac:(lia)).
    rewrite (ci_popped V s HI), (taken_off_3 V s) by lia. rewrite <- K2, <- Ee, <- (ci_log V s HI). apply firstn_all.
  Qed.
End Top.
