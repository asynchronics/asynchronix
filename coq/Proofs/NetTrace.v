(* Along ANY execution (any sequence of enabled steps, i.e. any schedule) the content of a mailbox is its
   initial content followed by the messages enqueued into it, in enqueue order, minus the prefix consumed by its
   owner, who consumed exactly that prefix, in that order: nothing is lost, duplicated, reordered or invented. *)
Require Import NX.Base.Prelude NX.Base.ListX NX.Model.Sim.
Require Import NX.Proofs.SimBasic NX.Proofs.NetSteps.

Inductive mevent := MEnq (g : msg) | MDeq.

Definition step_event (b : bench) (s : state) (l : label) (m : nat) : option mevent :=
  match l with
  | LStart t =>
      match nth_error (tasks s) t with
      | Some x => match tk x with
                  | TKModel m' => if Nat.eqb m' m && negb (tinit x) then Some MDeq else None
                  | TKAction => None
                  end
      | None => None
      end
  | LOp _ => None
  | LDeliver t i =>
      match nth_error (tasks s) t with
      | Some x => match tfr x with
                  | Some f => match nth_error (fpend f) i with
                              | Some d => match dtgt d with
                                          | DModel m' g =>
                                              match nth_error (bmodels b) m' with
                                              | Some sp => match mplace sp with
                                                           | Dropped => None
                                                           | _ => if Nat.eqb m' m then Some (MEnq g) else None
                                                           end
                                              | None => None
                                              end
                                          | DSink _ _ => None
                                          end
                              | None => None
                              end
                  | None => None
                  end
      | None => None
      end
  end.

Fixpoint net_exec (b : bench) (s : state) (ls : list label) : option state :=
  match ls with
  | [] => Some s
  | l :: r => match net_step b s l with Some s1 => net_exec b s1 r | None => None end
  end.

Fixpoint enqs (b : bench) (s : state) (ls : list label) (m : nat) : list msg :=
  match ls with
  | [] => []
  | l :: r => match net_step b s l with
              | Some s1 => (match step_event b s l m with Some (MEnq g) => [g] | _ => [] end) ++ enqs b s1 r m
              | None => []
              end
  end.

Fixpoint deqs (b : bench) (s : state) (ls : list label) (m : nat) : nat :=
  match ls with
  | [] => 0
  | l :: r => match net_step b s l with
              | Some s1 => (match step_event b s l m with Some MDeq => 1 | _ => 0 end) + deqs b s1 r m
              | None => 0
              end
  end.

Lemma step_event_spec b s l s1 m q :
  net_step b s l = Some s1 -> nth_error (boxes s) m = Some q ->
  match step_event b s l m with
  | None => nth_error (boxes s1) m = Some q
  | Some (MEnq g) => nth_error (boxes s1) m = Some (q ++ [g])
  | Some MDeq => exists g rest, q = g :: rest /\ nth_error (boxes s1) m = Some rest
  end.
Proof.
  intros H Hq. unfold net_step in H. destruct (err s); [discriminate|].
  assert (Lm : m < length (boxes s)) by (eapply nth_error_some_lt, Hq).
  destruct l as [t|t|t i]; cbn [step_event].
  - destruct (step_start_boxes _ _ _ _ H) as (x & m' & -> & -> & B). destruct (tinit x); cbn [negb].
    + rewrite andb_false_r. destruct B as [-> _]. exact Hq.
    + rewrite andb_true_r. destruct B as (g & rest & B1 & -> & _). destruct (Nat.eqb_spec m' m) as [->|NE].
      * rewrite Hq in B1. injection B1 as ->. exists g, rest. split; auto. apply nth_error_lupd_eq; auto.
      * rewrite nth_error_lupd_ne by auto. exact Hq.
  - apply step_op_keeps in H. destruct H as [-> _]. exact Hq.
  - apply step_deliver_inv in H. destruct H as (x & f & d & -> & -> & -> & H). cbv zeta in H.
    destruct (dtgt d) as [m' g|sk v]; [|subst s1; exact Hq].
    destruct H as (sp & q0 & -> & EB & [[-> ->]|(PL & _ & ->)]); [destruct (dthrow d); exact Hq|].
    cbn [boxes set_inflight set_boxes].
    destruct (mplace sp); [| |congruence];
      (destruct (Nat.eqb_spec m' m) as [->|NE];
       [rewrite nth_error_lupd_eq by auto; congruence | rewrite nth_error_lupd_ne by auto; exact Hq]).
Qed.

Lemma net_step_mailbox_order b s l s' m q :
  net_step b s l = Some s' -> nth_error (boxes s) m = Some q ->
  exists q', nth_error (boxes s') m = Some q' /\
    (q' = q \/ (exists g, q = g :: q') \/ (exists g, q' = q ++ [g])).
Proof.
  intros H Hq. pose proof (step_event_spec _ _ _ _ _ _ H Hq) as E.
  destruct (step_event b s l m) as [[g|]|]; [|destruct E as (g & rest & -> & E)|]; eauto 6.
Qed.

Theorem mailbox_trace b ls : forall s s' m q,
  net_exec b s ls = Some s' -> nth_error (boxes s) m = Some q ->
  deqs b s ls m <= length (q ++ enqs b s ls m) /\
  nth_error (boxes s') m = Some (skipn (deqs b s ls m) (q ++ enqs b s ls m)).
Proof.
  induction ls as [|l r IH]; intros s s' m q H Hq; cbn [net_exec enqs deqs] in *.
  - injection H as <-. rewrite app_nil_r. cbn. split; [lia|exact Hq].
  - destruct (net_step b s l) as [s1|] eqn:ES; [|discriminate].
    pose proof (step_event_spec _ _ _ _ _ _ ES Hq) as SE.
    destruct (step_event b s l m) as [[g|]|].
    + destruct (IH _ _ _ _ H SE) as [A B]. cbn [app Nat.add]. rewrite <- app_assoc in A, B. cbn [app] in A, B. auto.
    + destruct SE as (g & rest & -> & SE). destruct (IH _ _ _ _ H SE) as [A B].
      cbn [app Nat.add length skipn]. split; [lia|exact B].
    + destruct (IH _ _ _ _ H SE) as [A B]. cbn [app Nat.add]. auto.
Qed.

(* from the start of a run (all mailboxes as they are), a mailbox that ends
   empty has had every message ever enqueued into it consumed, in order *)
Corollary mailbox_all_consumed b ls s s' m q :
  net_exec b s ls = Some s' -> nth_error (boxes s) m = Some q -> nth_error (boxes s') m = Some [] ->
  deqs b s ls m = length q + length (enqs b s ls m).
Proof.
  intros H Hq He. destruct (mailbox_trace _ _ _ _ _ _ H Hq) as [A B]. rewrite He in B. injection B as B.
  rewrite app_length in A. assert (L : length (skipn (deqs b s ls m) (q ++ enqs b s ls m)) = 0) by (rewrite <- B; reflexivity).
  rewrite skipn_length, app_length in L. lia.
Qed.

(* net_run is an execution: the run of the executor under any choice sequence
   is one of the executions quantified over above *)
Lemma net_run_is_exec b fuel : forall ch s nd s' nd',
  net_run b fuel ch s nd = Some (s', nd') -> exists ls, net_exec b s ls = Some s' /\ net_enabled b s' = [].
Proof.
  intros ch s nd s' nd' H.
  apply (net_run_steps b (fun s s' => exists ls, net_exec b s ls = Some s')) in H.
  - destruct H as [[ls A] B]. eauto.
  - intros s0. exists []. reflexivity.
  - intros s0 l s1 s2 E [ls A]. exists (l :: ls). cbn [net_exec]. rewrite E. exact A.
Qed.
