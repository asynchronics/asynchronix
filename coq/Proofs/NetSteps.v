(* What one step of the message-passing layer does: step_start, step_op, step_deliver and
   deliver_reply, each characterised once by the shapes of the state it returns. *)
Require Import NX.Base.Prelude NX.Base.ListX NX.Model.Sim.
Require Import NX.Proofs.SimBasic.

Lemma set_task_same s t x : t < length (tasks s) -> nth_error (tasks (set_task s t x)) t = Some x.
Proof. apply nth_error_lupd_eq. Qed.

Lemma set_task_other s t x t' : t <> t' -> nth_error (tasks (set_task s t x)) t' = nth_error (tasks s) t'.
Proof. apply nth_error_lupd_ne. Qed.

Lemma deliver_reply_cases s r :
  deliver_reply s r = s \/
  (exists v, deliver_reply s r = set_qreply s (Some v)) \/
  exists rt slot v y f, r = Some (Some rt, slot, v) /\ nth_error (tasks s) rt = Some y /\ tfr y = Some f /\
    deliver_reply s r = set_task s rt (tset_tfr y (Some (fset_fwait f (lupd (fwait f) slot (Some v))))).
Proof.
  unfold deliver_reply. destruct r as [[[[rt|] slot] v]|]; eauto.
  destruct (nth_error (tasks s) rt) as [y|] eqn:E; auto. destruct (tfr y) as [f|] eqn:F; auto.
  right. right. exists rt, slot, v, y, f. auto.
Qed.

Definition msg_script (sp : mspec) (g : msg) : list op :=
  match mkd g with
  | KEvent _ => nth (minp g) (mhandlers sp) []
  | KRequest _ _ rep _ => fst (nth rep (mrepliers sp) ([], 0%Z))
  end.

Definition msg_reply (sp : mspec) (g : msg) : option (option nat * nat * Z) :=
  match mkd g with
  | KEvent _ => None
  | KRequest r slot rep radd => Some (r, slot, (mval g + snd (nth rep (mrepliers sp) ([], 0%Z)) + radd)%Z)
  end.

Definition msg_entry (m : nat) (g : msg) (t : Z) : entry :=
  match mkd g with
  | KEvent _ => EHandler m (minp g) (mval g) t
  | KRequest _ _ rep _ => EReplier m rep (mval g) t
  end.

Definition msg_cancelled (s : state) (g : msg) : bool :=
  match mkd g with KEvent key => key_cancelled s key | KRequest _ _ _ _ => false end.

Lemma step_start_inv b s t s' : step_start b s t = Some s' ->
  exists x m sp, nth_error (tasks s) t = Some x /\ tk x = TKModel m /\ tfr x = None /\ tdone x = false /\
    nth_error (bmodels b) m = Some sp /\
    ((tinit x = true /\
      s' = add_log (set_task s t (tset_tfr (tset_tinit x false) (Some (empty_frame (minit sp) 0 None))))
                   (EInit m (now s))) \/
     (tinit x = false /\ exists g rest fr, nth_error (boxes s) m = Some (g :: rest) /\
        let s1 := set_task (set_inflight (set_boxes s (lupd (boxes s) m rest)) (inflight s - 1)%Z) t
                           (tset_tfr x (Some fr)) in
        if msg_cancelled s g then fr = empty_frame [] (mval g) None /\ s' = s1
        else fr = empty_frame (msg_script sp g) (mval g) (msg_reply sp g) /\
             s' = add_log s1 (msg_entry m g (now s)))).
Proof.
  unfold step_start. intros H.
  destruct (nth_error (tasks s) t) as [x|] eqn:EX; [|discriminate].
  destruct (tk x) as [m|] eqn:TK; [|discriminate]. destruct (tfr x) eqn:TF; [discriminate|].
  destruct (tdone x) eqn:TD; [discriminate|]. destruct (nth_error (bmodels b) m) as [sp|] eqn:ES; [|discriminate].
  exists x, m, sp. do 5 (split; [auto|]). destruct (tinit x).
  - left. injection H as <-. auto.
  - right. split; [reflexivity|]. destruct (nth_error (boxes s) m) as [[|g rest]|] eqn:EB; try discriminate.
    exists g, rest. unfold msg_cancelled, msg_script, msg_reply, msg_entry.
    destruct (mkd g) as [key|r slot rep radd].
    + destruct (key_cancelled s key); injection H as <-; eexists; (split; [reflexivity|]); split; reflexivity.
    + destruct (nth rep (mrepliers sp) ([], 0%Z)) as [script c]. injection H as <-.
      eexists. split; [reflexivity|]. split; reflexivity.
Qed.

Lemma step_start_boxes b s t s' : step_start b s t = Some s' ->
  exists x m, nth_error (tasks s) t = Some x /\ tk x = TKModel m /\
    if tinit x then boxes s' = boxes s /\ inflight s' = inflight s
    else exists g rest, nth_error (boxes s) m = Some (g :: rest) /\ boxes s' = lupd (boxes s) m rest /\
                        inflight s' = (inflight s - 1)%Z.
Proof.
  intros H. apply step_start_inv in H.
  destruct H as (x & m & sp & E & K & _ & _ & _ & [[I ->]|(I & g & rest & fr & EB & H)]);
    exists x, m; rewrite I; do 2 (split; [assumption|]); [auto|].
  exists g, rest. split; [exact EB|].
  cbv zeta in H. destruct (msg_cancelled s g); destruct H as [_ ->]; auto.
Qed.

Lemma step_deliver_inv b s t i s' : step_deliver b s t i = Some s' ->
  exists x f d, nth_error (tasks s) t = Some x /\ tfr x = Some f /\ nth_error (fpend f) i = Some d /\
    let s0 := set_task s t (tset_tfr x (Some (fset_fpend f (ldel (fpend f) i)))) in
    match dtgt d with
    | DSink sk v =>
        s' = set_sinks s0 (match nth_error (sinks s) sk with
                           | Some st => lupd (sinks s) sk (sink_write st v)
                           | None => sinks s
                           end)
    | DModel m g =>
        exists sp q, nth_error (bmodels b) m = Some sp /\ nth_error (boxes s) m = Some q /\
          ((mplace sp = Dropped /\
            s' = if dthrow d then set_err s0 (Some (FNoRecipient (task_model x))) else s0) \/
           (mplace sp <> Dropped /\ length q < mcap sp /\
            s' = set_inflight (set_boxes s0 (lupd (boxes s) m (q ++ [g]))) (inflight s + 1)%Z))
    end.
Proof.
  unfold step_deliver. intros H.
  destruct (nth_error (tasks s) t) as [x|] eqn:EX; [|discriminate].
  destruct (tfr x) as [f|] eqn:TF; [|discriminate].
  destruct (nth_error (fpend f) i) as [d|] eqn:ED; [|discriminate].
  exists x, f, d. do 3 (split; [auto|]). cbv zeta. destruct (dtgt d) as [m g|sk v].
  - destruct (nth_error (bmodels b) m) as [sp|] eqn:ES; [|discriminate].
    destruct (nth_error (boxes s) m) as [q|] eqn:EB; [|discriminate]. exists sp, q. do 2 (split; [reflexivity|]).
    destruct (mplace sp) eqn:PL.
    1, 2: right; split; [congruence|]; destruct (Nat.ltb_spec (length q) (mcap sp)); [|discriminate];
      injection H as <-; auto.
    left. destruct (dthrow d); injection H as <-; auto.
  - destruct (nth_error (sinks s) sk); injection H as <-; reflexivity.
Qed.

Definition finished (x : task) : task :=
  match tk x with TKModel _ => tset_tfr x None | TKAction => tset_tdone (tset_tfr x None) true end.

Definition op_deliveries (b : bench) (t : nat) (om : option nat) (v : Z) (o : op) : list delivery :=
  match o, om with
  | OSend port e, Some m =>
      match nth_error (bmodels b) m with
      | Some sp => conn_deliveries (nth port (mouts sp) []) (eval e v)
      | None => []
      end
  | OQuery port e, Some m =>
      match nth_error (bmodels b) m with
      | Some sp => query_deliveries t 0 (nth port (mreqs sp) []) (eval e v)
      | None => []
      end
  | OEvent m' i v' key, _ => [{| dtgt := DModel m' {| minp := i; mval := v'; mkd := KEvent key |}; dthrow := false |}]
  | OReq m' rep v', _ =>
      [{| dtgt := DModel m' {| minp := 0; mval := v'; mkd := KRequest None 0 rep 0 |}; dthrow := false |}]
  | OBcast src v', _ => conn_deliveries (nth src (bsources b) []) v'
  | _, _ => []
  end.

Lemma sched_request_cancelled s origin d mk keyed period chk s' code k :
  sched_request s origin d mk keyed period chk = (s', code, k) ->
  cancelled s' = cancelled s \/ cancelled s' = cancelled s ++ [false].
Proof.
  unfold sched_request.
  destruct (chk && _); [intros H; injection H as <- <- <-; left; reflexivity|].
  destruct (Z.leb _ _); [intros H; injection H as <- <- <-; left; reflexivity|].
  destruct keyed; cbn; intros H; injection H as <- <- <-; cbn; [right | left]; reflexivity.
Qed.

(* one op o of the script of task t (x, frame f, with nothing pending) leads to s', where the
   task is x' with frame f' *)
Set Implicit Arguments.
Record op_step (b : bench) (s : state) (t : nat) (x : task) (f : frame) (o : op) (rest : list op)
       (s' : state) (x' : task) (f' : frame) : Prop := {
  os_tasks : tasks s' = lupd (tasks s) t x';
  os_tfr : tfr x' = Some f';
  os_tk : tk x' = tk x;
  os_tinit : tinit x' = tinit x;
  os_tdone : tdone x' = tdone x;
  os_frest : frest f' = rest;
  os_fin : fin f' = fin f;
  os_freply : freply f' = freply f;
  os_fpend : fpend f' = op_deliveries b t (task_model x) (fin f) o;
  os_fwait : fwait f' = match o with OQuery _ _ => map (fun _ => None) (fpend f') | _ => [] end;
  os_boxes : boxes s' = boxes s;
  os_inflight : inflight s' = inflight s;
  os_sinks : sinks s' = sinks s;
  os_log : log s' = log s \/ exists c, log s' = ESched (task_model x) c :: log s;
  os_cancelled : (cancelled s' = cancelled s \/ cancelled s' = cancelled s ++ [false]) \/
                 exists sl, o = OCancel sl
}.
Unset Implicit Arguments.

Lemma step_op_inv b s t s' : step_op b s t = Some s' ->
  exists x f, nth_error (tasks s) t = Some x /\ tfr x = Some f /\ fpend f = [] /\
    ((fwait f <> [] /\ opt_all (fwait f) = true /\
      let s1 := set_task s t (tset_tfr x (Some (fset_fwait f []))) in
      s' = match task_model x with Some m => add_log s1 (EReplies m (opt_vals (fwait f))) | None => s1 end) \/
     (fwait f = [] /\ frest f = [] /\ s' = deliver_reply (set_task s t (finished x)) (freply f)) \/
     (fwait f = [] /\ exists o rest, frest f = o :: rest /\ exists x' f', op_step b s t x f o rest s' x' f')).
Proof.
  unfold step_op. intros H.
  destruct (nth_error (tasks s) t) as [x|] eqn:EX; [|discriminate].
  destruct (tfr x) as [f|] eqn:TF; [|discriminate].
  destruct (fpend f) eqn:FP; [|discriminate]. exists x, f. do 3 (split; [auto|]).
  destruct (fwait f) eqn:FW.
  2:{ left. destruct (opt_all _); [|discriminate]. split; [discriminate|]. split; [reflexivity|].
      destruct (task_model x); injection H as <-; reflexivity. }
  right. destruct (frest f) as [|o rest] eqn:FR.
  { left. injection H as <-. unfold finished. destruct (tk x); auto. }
  right. split; [reflexivity|]. exists o, rest. split; [reflexivity|].
  destruct o; destruct (task_model x) as [mm|] eqn:TM; try discriminate H; unfold op_deliveries.
  3:{ destruct (sched_request _ _ _ _ _ _ _) as [[s1 code] k] eqn:ESR.
      pose proof (sched_request_cancelled _ _ _ _ _ _ _ _ _ _ ESR) as EC.
      apply sched_request_frame in ESR. destruct ESR as (_ & _ & _ & _ & EL & _ & EB & EI & ET & ESK & _).
      injection H as <-.
      destruct slot; destruct k; eexists _, _; split; cbn; rewrite ?ET, ?EL, ?TM; try reflexivity; eauto. }
  3:{ injection H as <-. unfold cancel_key.
      destruct (nth slot (tkeys x) None); eexists _, _; split; cbn; try reflexivity; eauto. }
  1, 2: destruct (nth_error (bmodels b) mm) as [sp|] eqn:ES; [|discriminate].
  all: injection H as <-; eexists _, _; split; try reflexivity; cbn; rewrite ?FW, ?TM, ?ES; auto.
Qed.

Lemma finished_spec x :
  tfr (finished x) = None /\ tk (finished x) = tk x /\ tinit (finished x) = tinit x /\
  (forall m, tk x = TKModel m -> tdone (finished x) = tdone x).
Proof. unfold finished. destruct (tk x) eqn:E; cbn; repeat split; intros; congruence. Qed.

Lemma enabled_complete b s l s' : net_step b s l = Some s' -> In l (net_enabled b s).
Proof.
  intros H. pose proof H as H0. unfold net_step in H0. destruct (err s); [discriminate|].
  assert (IN : forall t x, nth_error (tasks s) t = Some x -> In t (seqn 0 (length (tasks s)))).
  { intros t x E. apply nth_error_some_lt in E. apply In_seqn. lia. }
  unfold net_enabled. apply in_flat_map. unfold enabled_of_task. destruct l as [t|t|t i]; exists t.
  - apply step_start_inv in H0. destruct H0 as (x & _ & _ & E & _). rewrite H. split; [eauto|left; reflexivity].
  - apply step_op_inv in H0. destruct H0 as (x & _ & E & _). rewrite H. split; [eauto|].
    apply in_or_app. right. left. reflexivity.
  - apply step_deliver_inv in H0. destruct H0 as (x & f & d & E & F & D & _). rewrite E, F. split; [eauto|].
    apply in_or_app. right. apply in_or_app. right. apply filter_In. rewrite H. split; [|reflexivity].
    apply in_map, In_seqn. apply nth_error_some_lt in D. lia.
Qed.

Lemma quiescent_no_step b s l : net_enabled b s = [] -> net_step b s l = None.
Proof.
  intros Q. destruct (net_step b s l) eqn:E; [|reflexivity]. apply enabled_complete in E. rewrite Q in E. destruct E.
Qed.

Definition tsig (x : task) : tkind * bool := (tk x, tinit x).

Lemma lupd_sig l t x x' t' :
  nth_error l t = Some x -> tsig x' = tsig x ->
  option_map tsig (nth_error (lupd l t x') t') = option_map tsig (nth_error l t').
Proof.
  intros H E. destruct (Nat.eq_dec t t') as [<-|NE].
  - rewrite nth_error_lupd_eq by (eapply nth_error_some_lt, H). rewrite H. cbn. congruence.
  - rewrite nth_error_lupd_ne by exact NE. reflexivity.
Qed.

Lemma step_op_keeps b s t s' : step_op b s t = Some s' ->
  boxes s' = boxes s /\ inflight s' = inflight s /\
  (forall t', option_map tsig (nth_error (tasks s') t') = option_map tsig (nth_error (tasks s) t')) /\
  (log s' = log s \/ (exists m rs, log s' = EReplies m rs :: log s) \/ exists m c, log s' = ESched m c :: log s).
Proof.
  intros H. apply step_op_inv in H.
  destruct H as (x & f & EX & TF & _ & [(_ & _ & ->)|[(_ & _ & ->)|(_ & o & rest & _ & x' & f' & O)]]).
  - assert (S : forall x' t', option_map tsig (nth_error (tasks (set_task s t (tset_tfr x x'))) t') =
                              option_map tsig (nth_error (tasks s) t')).
    { intros x' t'. apply (lupd_sig _ _ x); auto. }
    cbv zeta. destruct (task_model x); repeat split; auto; try exact (S _); right; left; eexists _, _; reflexivity.
  - pose proof (finished_spec x) as (_ & K & I & _).
    assert (S : forall t', option_map tsig (nth_error (tasks (set_task s t (finished x))) t') =
                           option_map tsig (nth_error (tasks s) t')).
    { intros t'. apply (lupd_sig _ _ x); [exact EX|]. unfold tsig. congruence. }
    destruct (deliver_reply_cases (set_task s t (finished x)) (freply f))
      as [->|[[v ->]|(rt & sl & v & y & fy & _ & EY & _ & ->)]]; repeat split; auto.
    intros t'. rewrite <- S. apply (lupd_sig _ _ y); auto.
  - pose proof (os_tk O) as K. pose proof (os_tinit O) as I. pose proof (os_log O) as EL.
    split; [exact (os_boxes O)|]. split; [exact (os_inflight O)|]. split.
    + intros t'. rewrite (os_tasks O). apply (lupd_sig _ _ x); [exact EX|]. unfold tsig. congruence.
    + destruct EL as [EL|[c EL]]; eauto.
Qed.

Lemma step_deliver_keeps b s t i s' : step_deliver b s t i = Some s' ->
  log s' = log s /\
  forall t', option_map tsig (nth_error (tasks s') t') = option_map tsig (nth_error (tasks s) t').
Proof.
  intros H. apply step_deliver_inv in H. destruct H as (x & f & d & EX & TF & _ & H). cbv zeta in H.
  assert (S : forall f' t', option_map tsig (nth_error (lupd (tasks s) t (tset_tfr x f')) t') =
                            option_map tsig (nth_error (tasks s) t')).
  { intros f' t'. apply (lupd_sig _ _ x); auto. }
  specialize (S (Some (fset_fpend f (ldel (fpend f) i)))).
  destruct (dtgt d) as [m g|sk v]; [|subst s'; auto].
  destruct H as (sp & q & _ & _ & [[_ ->]|(_ & _ & ->)]); [destruct (dthrow d)|]; auto.
Qed.
