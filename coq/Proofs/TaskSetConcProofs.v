(* Invariant of the concurrent TaskSet model and its consequences: the linked lists are never
   corrupted (the iterator never meets SLEEPING), a completed wake-up is never lost (the task
   stays pending until the owner yields or discards it). *)
Require Import NX.Base.Prelude NX.Base.ListX NX.Model.TaskSetConc.

Fixpoint chain (nx : list nst) (o : option nat) (l : list nat) : Prop :=
  match l with
  | [] => o = None
  | i :: r => o = Some i /\ exists x, nth i nx NSleep = NIdx x /\ chain nx x r
  end.

Definition citer (c : cphase) : option nat :=
  match c with CIter it => it | CDrop it _ => it | _ => None end.

Definition claimed (w : waker) : Prop := kpc w = 4 \/ kpc w = 5.

Definition pending (s : tstate) (lh li : list nat) (i : nat) : Prop :=
  In i (lh ++ li) \/ exists j w, nth_error (tkwakers s) j = Some w /\ claimed w /\ kti w = i.

Record Lists (s : tstate) (lh li : list nat) : Prop := {
  l_head : chain (tnext s) (snd (thead s)) lh;
  l_iter : chain (tnext s) (citer (cph s)) li;
  l_nodup : NoDup (lh ++ li);
  l_claimed : forall j w, nth_error (tkwakers s) j = Some w -> claimed w ->
      ~ In (kti w) (lh ++ li) /\ (exists x, nth (kti w) (tnext s) NSleep = NIdx x) /\
      (kpc w = 4 -> nth (kti w) (tnext s) NSleep = NIdx (snd (khd w)));
  l_uniq : forall j k w v, nth_error (tkwakers s) j = Some w -> nth_error (tkwakers s) k = Some v -> j <> k ->
      claimed w -> claimed v -> kti w <> kti v;
  l_cover : forall i x, nth i (tnext s) NSleep = NIdx x -> pending s lh li i;
  l_drop : forall idx nx, cph s = CDrop (Some idx) (Some nx) -> nx = nth idx (tnext s) NSleep;
  l_woken : forall i, nth i (woken s) false = true -> pending s lh li i
}.

Record TInv (s : tstate) : Prop := {
  ti_len : length (woken s) = length (tnext s);
  ti_panic : tpanic s = 0;
  ti_wpc : forall j w, nth_error (tkwakers s) j = Some w ->
      kpc w <= 6 /\ kti w < length (tnext s) /\ (kpc w = 3 -> knxt w <> NSleep);
  ti_lists : exists lh li, Lists s lh li
}.

Lemma chain_none nx l : chain nx None l -> l = [].
Proof. destruct l as [|i r]; [reflexivity|]. intros [H _]. discriminate. Qed.

Lemma chain_some nx i l : chain nx (Some i) l -> exists x r, l = i :: r /\ nth i nx NSleep = NIdx x /\ chain nx x r.
Proof. destruct l as [|k r]; [discriminate|]. intros (E & x & Hx & Hr). injection E as <-. eauto. Qed.

Lemma chain_ext nx nx' : forall l o, chain nx o l -> (forall i, In i l -> nth i nx' NSleep = nth i nx NSleep) -> chain nx' o l.
Proof.
  induction l as [|k r IH]; intros o Hc Hn; [exact Hc|].
  destruct Hc as (Ho & x & Hx & Hr). split; [exact Ho|]. exists x. split.
  - rewrite Hn; [exact Hx|left; reflexivity].
  - apply IH; [exact Hr|]. intros i Hi. apply Hn. right. exact Hi.
Qed.

Lemma chain_lupd nx i v l o : chain nx o l -> ~ In i l -> chain (lupd nx i v) o l.
Proof.
  intros Hc Hn. apply (chain_ext nx); [exact Hc|]. intros k Hk. rewrite nth_lupd.
  destruct (Nat.eqb_spec k i) as [->|_]; [contradiction|reflexivity].
Qed.

Lemma chain_nidx nx : forall l o i, chain nx o l -> In i l -> exists x, nth i nx NSleep = NIdx x.
Proof.
  induction l as [|k r IH]; intros o i Hc Hi; [destruct Hi|].
  destruct Hc as (_ & x & Hx & Hr). destruct Hi as [->|Hi]; [eauto|eapply IH; eauto].
Qed.

Ltac tproj := cbn [thead tnext tkwakers cph yielded woken tnotif tpanic set_w set_c mkw kpc kti knxt khd].

Lemma nst_eqb_true a b : nst_eqb a b = true -> a = b.
Proof.
  destruct a as [|[x|]], b as [|[y|]]; cbn; try discriminate; auto.
  intros H. apply Nat.eqb_eq in H. congruence.
Qed.

Lemma hd_eqb_spec a b : reflect (a = b) (hd_eqb a b).
Proof.
  destruct a as [c1 o1], b as [c2 o2]. unfold hd_eqb. cbn [fst snd].
  destruct (Nat.eqb_spec c1 c2) as [->|Hc]; [|right; congruence].
  destruct o1 as [x|], o2 as [y|]; cbn [andb]; try (right; congruence); [|left; reflexivity].
  destruct (Nat.eqb_spec x y) as [->|Hx]; [left; reflexivity|right; congruence].
Qed.

Lemma hd_eqb_true a b : hd_eqb a b = true -> a = b.
Proof. destruct (hd_eqb_spec a b); [auto|discriminate]. Qed.

Lemma hd_eqb_refl a : hd_eqb a a = true.
Proof. destruct (hd_eqb_spec a a); [reflexivity|contradiction]. Qed.

Lemma not_sleep_in_lists s lh li i : Lists s lh li -> In i (lh ++ li) -> exists x, nth i (tnext s) NSleep = NIdx x.
Proof.
  intros L Hi. apply in_app_or in Hi. destruct Hi as [Hi|Hi].
  - eapply chain_nidx; [exact (l_head _ _ _ L)|exact Hi].
  - eapply chain_nidx; [exact (l_iter _ _ _ L)|exact Hi].
Qed.

Lemma pending_set_waker s s' j w w' lh li lh' li' i :
  pending s lh li i -> nth_error (tkwakers s) j = Some w -> tkwakers s' = lupd (tkwakers s) j w' ->
  (forall x, In x (lh ++ li) -> In x (lh' ++ li')) ->
  (claimed w -> In (kti w) (lh' ++ li') \/ claimed w' /\ kti w' = kti w) ->
  pending s' lh' li' i.
Proof.
  intros [P|(k & v & Hk & Hc & Hv)] Hj Hw Hl Hcl; [left; apply Hl; exact P|]. subst i.
  destruct (Nat.eq_dec k j) as [->|Hne].
  - rewrite Hj in Hk. injection Hk as <-. destruct (Hcl Hc) as [Q|[C W]]; [left; exact Q|right].
    exists j, w'. rewrite Hw. split; [|auto]. apply nth_error_lupd_eq. eapply nth_error_some_lt, Hj.
  - right. exists k, v. rewrite Hw. split; [|auto]. rewrite nth_error_lupd_ne by congruence. exact Hk.
Qed.

(* The program counter of a waker, along Task::wake_by_ref: 0 load next, 1 branch on it, 2 CAS next
   SLEEPING -> head index (the claim), 3 no-op CAS on next, 4 CAS head (the push), 5 swap next after a
   failed push, 6 returned. *)

(* One step of waker j that leaves head and both lists as they are (every step but the successful push): next
   may change at its own task only, and only while w' holds the claim; woken may be set for tasks whose next is
   not SLEEPING. *)
Lemma waker_step_inv s j w w' nx' wk' :
  TInv s -> nth_error (tkwakers s) j = Some w ->
  kti w' = kti w -> kpc w' <= 6 -> (kpc w' = 3 -> knxt w' <> NSleep) -> (claimed w -> claimed w') ->
  length nx' = length (tnext s) -> length wk' = length (woken s) ->
  (forall i, nth i nx' NSleep = nth i (tnext s) NSleep \/ i = kti w /\ claimed w') ->
  (claimed w' -> (exists x, nth (kti w) nx' NSleep = NIdx x) /\ (kpc w' = 4 -> nth (kti w) nx' NSleep = NIdx (snd (khd w')))) ->
  (claimed w' -> claimed w \/ nth (kti w) (tnext s) NSleep = NSleep) ->
  (forall i, nth i wk' false = true -> nth i (woken s) false = true \/ exists x, nth i (tnext s) NSleep = NIdx x) ->
  TInv {| thead := thead s; tnext := nx'; tkwakers := lupd (tkwakers s) j w'; cph := cph s; yielded := yielded s;
          woken := wk'; tnotif := tnotif s; tpanic := tpanic s |}.
Proof.
  intros [A B C (lh & li & L)] Hj Hti Hpc H3 Hcl Hlen Hlenw Hnx Hnew Hfresh Hwk.
  pose proof (C j w Hj) as (_ & Hlt & _). set (i := kti w) in *.
  (* the task of a claimant is in neither list and has no other claimant *)
  assert (Hsep : claimed w' -> ~ In i (lh ++ li) /\
            forall k v, k <> j -> nth_error (tkwakers s) k = Some v -> claimed v -> kti v <> i).
  { intros Hc'. destruct (Hfresh Hc') as [Hc|Hsl].
    - split; [exact (proj1 (l_claimed _ _ _ L j w Hj Hc))|].
      intros k v Hne Hk Hv. exact (l_uniq _ _ _ L k j v w Hk Hj Hne Hv Hc).
    - split.
      + intros Hi. destruct (not_sleep_in_lists _ _ _ _ L Hi) as (x & Hx). congruence.
      + intros k v _ Hk Hv E. destruct (l_claimed _ _ _ L k v Hk Hv) as (_ & (x & Hx) & _). rewrite E in Hx. congruence. }
  assert (Hsame : forall i', In i' (lh ++ li) -> nth i' nx' NSleep = nth i' (tnext s) NSleep).
  { intros i' Hi'. destruct (Hnx i') as [E|[-> Hc']]; [exact E|]. destruct (Hsep Hc') as [Hn _]. contradiction. }
  set (s' := {| thead := thead s; tnext := nx'; tkwakers := lupd (tkwakers s) j w'; cph := cph s; yielded := yielded s;
                woken := wk'; tnotif := tnotif s; tpanic := tpanic s |}).
  assert (Hpm : forall i', pending s lh li i' -> pending s' lh li i').
  { intros i' Hp. apply (pending_set_waker s s' j w w' lh li lh li i' Hp Hj eq_refl); auto. }
  subst s'. destruct L as [Lhead Liter Lnodup Lclaimed Luniq Lcover Ldrop Lwoken]. constructor; tproj.
  - congruence.
  - exact B.
  - intros k v Hk. rewrite Hlen. apply nth_error_lupd_inv in Hk. destruct Hk as [[-> ->]|[Hne Hk]]; [|apply (C k v Hk)].
    rewrite Hti. auto.
  - exists lh, li. constructor; tproj.
    + apply (chain_ext (tnext s)); [exact Lhead|]. intros i' Hi'. apply Hsame. apply in_or_app. left. exact Hi'.
    + apply (chain_ext (tnext s)); [exact Liter|]. intros i' Hi'. apply Hsame. apply in_or_app. right. exact Hi'.
    + exact Lnodup.
    + intros k v Hk Hc. apply nth_error_lupd_inv in Hk. destruct Hk as [[-> ->]|[Hne Hk]].
      * rewrite Hti. split; [exact (proj1 (Hsep Hc))|exact (Hnew Hc)].
      * destruct (Hnx (kti v)) as [E|[E Hc']]; [rewrite E; exact (Lclaimed k v Hk Hc)|].
        destruct (Hsep Hc') as [_ Ho]. destruct (Ho k v Hne Hk Hc E).
    + intros k1 k2 v1 v2 H1 H2 Hne C1 C2. apply nth_error_lupd_inv in H1. apply nth_error_lupd_inv in H2.
      destruct H1 as [[-> ->]|[N1 H1]], H2 as [[-> ->]|[N2 H2]].
      * congruence.
      * rewrite Hti. intros E. exact (proj2 (Hsep C1) k2 v2 N2 H2 C2 (eq_sym E)).
      * rewrite Hti. exact (proj2 (Hsep C2) k1 v1 N1 H1 C1).
      * eauto.
    + intros i' x Hx. destruct (Hnx i') as [E|[-> Hc']]; [apply Hpm; rewrite E in Hx; eauto|].
      right. exists j, w'. tproj. split; [|auto]. apply nth_error_lupd_eq. eapply nth_error_some_lt, Hj.
    + intros idx nx Hc. rewrite (Ldrop idx nx Hc). symmetry. apply Hsame.
      rewrite Hc in Liter. destruct (chain_some _ _ _ Liter) as (x & r & -> & _). apply in_or_app. right. left. reflexivity.
    + intros i' Hi'. apply Hpm. destruct (Hwk i' Hi') as [E|(x & Hx)]; eauto.
Qed.

Lemma waker_private_inv s j w pc' nx hd :
  TInv s -> nth_error (tkwakers s) j = Some w ->
  pc' <= 6 -> pc' <> 4 -> (pc' = 3 -> nx <> NSleep) -> (pc' = 5 <-> claimed w) -> TInv (set_w s j (mkw pc' (kti w) nx hd)).
Proof.
  intros HI Hj Hpc H4 H3 H5.
  assert (Hc : claimed (mkw pc' (kti w) nx hd) <-> claimed w) by (unfold claimed at 1; tproj; tauto).
  apply (waker_step_inv s j w _ (tnext s) (woken s) HI Hj);
    [reflexivity|exact Hpc|exact H3|apply Hc|reflexivity|reflexivity|left; reflexivity|
     |left; apply Hc; assumption|left; assumption].
  (* the next of a task that stays claimed *)
  intros Hc'. apply Hc in Hc'. destruct (ti_lists s HI) as (lh & li & L).
  destruct (l_claimed _ _ _ L j w Hj Hc') as (_ & Hx & _). split; [exact Hx|intros E; contradiction].
Qed.

(* next[i] := the head index just read, by the claiming compare-exchange or by the swap after a failed push *)
Lemma link_step s j w :
  TInv s -> nth_error (tkwakers s) j = Some w -> claimed w \/ nth (kti w) (tnext s) NSleep = NSleep ->
  TInv {| thead := thead s; tnext := lupd (tnext s) (kti w) (NIdx (snd (khd w))); tkwakers := lupd (tkwakers s) j (mkw 4 (kti w) (knxt w) (khd w));
          cph := cph s; yielded := yielded s; woken := woken s; tnotif := tnotif s; tpanic := tpanic s |}.
Proof.
  intros HI Hj Hc. pose proof (ti_wpc s HI j w Hj) as (_ & Hlt & _). apply Nat.ltb_lt in Hlt.
  apply (waker_step_inv s j w _ _ _ HI Hj); tproj;
    [reflexivity|lia|discriminate|left; reflexivity|apply lupd_length|reflexivity| | |intros _; exact Hc|left; assumption].
  - (* next changes at the claimed task only *)
    intros i. rewrite nth_lupd. destruct (Nat.eqb_spec i (kti w)) as [->|_]; [right; split; [reflexivity|left; reflexivity]|left; reflexivity].
  - (* and holds the head index just written *)
    intros _. rewrite nth_lupd, Nat.eqb_refl, Hlt. split; [eexists|]; reflexivity.
Qed.

(* the no-op compare-exchange succeeded: the wake-up is absorbed by the pending one *)
Lemma absorb_step s j w :
  TInv s -> nth_error (tkwakers s) j = Some w -> kpc w = 3 -> nth (kti w) (tnext s) NSleep = knxt w ->
  TInv {| thead := thead s; tnext := tnext s; tkwakers := lupd (tkwakers s) j (mkw 6 (kti w) (knxt w) (khd w));
          cph := cph s; yielded := yielded s; woken := lupd (woken s) (kti w) true; tnotif := tnotif s; tpanic := tpanic s |}.
Proof.
  intros HI Hj Hpc Hnx. pose proof (ti_wpc s HI j w Hj) as (_ & _ & H3).
  (* no claim before (pc 3) or after (pc 6): all that is left is that woken is set for a task whose next is an index *)
  assert (Hw : ~ claimed w) by (unfold claimed; lia).
  assert (Hw' : ~ claimed (mkw 6 (kti w) (knxt w) (khd w))) by (unfold claimed; tproj; lia).
  apply (waker_step_inv s j w _ _ _ HI Hj); tproj;
    [reflexivity|lia|discriminate|intros Hc; destruct (Hw Hc)|reflexivity|apply lupd_length|left; reflexivity|
     intros Hc; destruct (Hw' Hc)|intros Hc; destruct (Hw' Hc)|].
  intros i Hi. rewrite nth_lupd in Hi. destruct (Nat.eqb_spec i (kti w)) as [E|_]; [|left; exact Hi].
  right. rewrite E, Hnx. destruct (knxt w) as [|x]; [destruct (H3 Hpc eq_refl)|eauto].
Qed.

(* the compare-exchange on head succeeded: the claimed task is linked in *)
Lemma push_step s j w :
  TInv s -> nth_error (tkwakers s) j = Some w -> kpc w = 4 -> thead s = khd w ->
  TInv {| thead := (fst (khd w) - 1, Some (kti w)); tnext := tnext s; tkwakers := lupd (tkwakers s) j (mkw 6 (kti w) (knxt w) (khd w));
          cph := cph s; yielded := yielded s; woken := lupd (woken s) (kti w) true;
          tnotif := tnotif s + (if Nat.eqb (fst (khd w)) 1 then 1 else 0); tpanic := tpanic s |}.
Proof.
  intros [A B C (lh & li & L)] Hj Hpc Hhd. pose proof (C j w Hj) as (_ & Hlt & _).
  set (i := kti w) in *.
  destruct L as [Lhead Liter Lnodup Lclaimed Luniq Lcover Ldrop Lwoken].
  destruct (Lclaimed j w Hj (or_introl Hpc)) as (Hnl & _ & Hnx). specialize (Hnx Hpc).
  set (s' := {| thead := (fst (khd w) - 1, Some i); tnext := tnext s; tkwakers := _; cph := _; yielded := _; woken := _; tnotif := _; tpanic := _ |}).
  assert (Hpm : forall i', pending s lh li i' -> pending s' (i :: lh) li i').
  { intros i' Hp. apply (pending_set_waker s s' j w (mkw 6 i (knxt w) (khd w)) lh li _ _ i' Hp Hj eq_refl).
    - intros y Hy. right. exact Hy.
    - intros _. left. left. reflexivity. }
  subst s'. constructor; tproj.
  - rewrite lupd_length. exact A.
  - exact B.
  - intros k v Hk. apply nth_error_lupd_inv in Hk. destruct Hk as [[-> ->]|[Hne Hk]]; [|apply (C k v Hk)].
    tproj. split; [lia|]. split; [exact Hlt|intros E; discriminate].
  - exists (i :: lh), li. constructor; tproj.
    + cbn [snd chain]. split; [reflexivity|]. exists (snd (khd w)). split; [exact Hnx|]. rewrite <- Hhd. exact Lhead.
    + exact Liter.
    + cbn [app]. constructor; [exact Hnl|exact Lnodup].
    + intros k v Hk Hc. apply nth_error_lupd_inv in Hk. destruct Hk as [[-> ->]|[Hne Hk]]; [destruct Hc as [E|E]; discriminate|].
      destruct (Lclaimed k v Hk Hc) as (Q1 & Q2 & Q3). split; [|split; assumption].
      cbn [app]. intros [E|E]; [|contradiction]. eapply (Luniq j k w v); eauto. left; exact Hpc.
    + intros k1 k2 v1 v2 H1 H2 Hne C1 C2. apply nth_error_lupd_inv in H1. apply nth_error_lupd_inv in H2.
      destruct H1 as [[-> ->]|[N1 H1]]; [destruct C1 as [E|E]; discriminate|].
      destruct H2 as [[-> ->]|[N2 H2]]; [destruct C2 as [E|E]; discriminate|]. eauto.
    + intros i' y Hy. apply Hpm. eapply Lcover; eauto.
    + exact Ldrop.
    + intros i' Hi'. rewrite nth_lupd in Hi'. destruct (Nat.eqb_spec i' i) as [E|_]; [|apply Hpm; apply Lwoken; exact Hi'].
      destruct (i <? length (woken s)); [rewrite E; left; left; reflexivity|apply Hpm; apply Lwoken; exact Hi'].
Qed.

Lemma tinv_set_c_same s c :
  TInv s -> citer c = citer (cph s) ->
  (forall idx nx, c = CDrop (Some idx) (Some nx) -> nx = nth idx (tnext s) NSleep) ->
  TInv (set_c s c).
Proof.
  intros [A B C (lh & li & L)] Hc Hd. constructor; tproj; auto.
  exists lh, li. destruct L as [Lhead Liter Lnodup Lclaimed Luniq Lcover Ldrop Lwoken]. constructor; unfold pending in *; tproj; auto.
  rewrite Hc. exact Liter.
Qed.

(* take_scheduled: the compare-exchange on head succeeded *)
Lemma take_step s k hd :
  TInv s -> cph s = CTake k (Some hd) -> thead s = hd ->
  TInv {| thead := match snd hd with None => (k, None) | Some _ => (0, None) end; tnext := tnext s; tkwakers := tkwakers s;
          cph := match snd hd with None => CIdle | Some x => CIter (Some x) end;
          yielded := yielded s; woken := woken s; tnotif := tnotif s; tpanic := tpanic s |}.
Proof.
  intros [A B C (lh & li & L)] Hc Hh. destruct L as [Lhead Liter Lnodup Lclaimed Luniq Lcover Ldrop Lwoken].
  rewrite Hc in Liter. apply chain_none in Liter.
  (* the scheduled list becomes the iterator's; if it was empty both are *)
  constructor; tproj; auto. exists [], (lh ++ li). constructor; unfold pending in *; tproj; cbn [app]; auto.
  - destruct (snd hd); reflexivity.
  - replace (citer _) with (snd hd) by (destruct (snd hd); reflexivity). rewrite Liter, app_nil_r, <- Hh. exact Lhead.
  - intros idx nx Hd. destruct (snd hd); discriminate.
Qed.

(* the iterator pops one task (yield), or the dropped iterator clears one *)
Lemma pop_step s idx x c' (yl : list nat) :
  TInv s -> citer (cph s) = Some idx -> nth idx (tnext s) NSleep = NIdx x -> citer c' = x ->
  (forall i nx, c' = CDrop (Some i) (Some nx) -> False) ->
  TInv {| thead := thead s; tnext := lupd (tnext s) idx NSleep; tkwakers := tkwakers s; cph := c';
          yielded := yl; woken := lupd (woken s) idx false; tnotif := tnotif s; tpanic := tpanic s |}.
Proof.
  intros [A B C (lh & li & L)] Hit Hnx Hc' Hnd. destruct L as [Lhead Liter Lnodup Lclaimed Luniq Lcover Ldrop Lwoken].
  rewrite Hit in Liter. destruct (chain_some _ _ _ Liter) as (y & r & -> & Hy & Hr). rewrite Hnx in Hy. injection Hy as <-.
  destruct (NoDup_remove _ _ _ Lnodup) as [Hnd2 Hnd1]. rewrite in_app_iff in Hnd1.
  assert (Hb : Nat.ltb idx (length (tnext s)) = true).
  { apply Nat.ltb_lt. destruct (Nat.lt_ge_cases idx (length (tnext s))) as [H|H]; [exact H|]. rewrite nth_overflow in Hnx by exact H. discriminate. }
  (* pending reads the wakers only, and the consumer leaves them alone *)
  assert (Hpm : forall i', i' <> idx -> pending s lh (idx :: r) i' -> pending s lh r i').
  { intros i' Hne [P|P]; [left|right; exact P]. rewrite in_app_iff in *. destruct P as [P|[P|P]]; [left; exact P|congruence|right; exact P]. }
  constructor; tproj.
  - rewrite !lupd_length. exact A.
  - exact B.
  - intros k v Hk. rewrite lupd_length. apply (C k v Hk).
  - exists lh, r. constructor; tproj.
    + apply chain_lupd; [exact Lhead|tauto].
    + rewrite Hc'. apply chain_lupd; [exact Hr|tauto].
    + exact Hnd2.
    + intros k v Hk Hc. destruct (Lclaimed k v Hk Hc) as (Q1 & Q2 & Q3). rewrite in_app_iff in Q1 |- *. cbn [In] in Q1.
      rewrite nth_lupd. destruct (Nat.eqb_spec (kti v) idx) as [E|_]; [destruct Q1; auto|].
      split; [tauto|split; assumption].
    + exact Luniq.
    + intros i' y Hy. rewrite nth_lupd in Hy. destruct (Nat.eqb_spec i' idx) as [E|Hne].
      * rewrite Hb in Hy. discriminate.
      * apply Hpm; [exact Hne|]. eapply Lcover; eauto.
    + intros i nx Hd. destruct (Hnd i nx Hd).
    + intros i' Hi'. rewrite nth_lupd in Hi'. destruct (Nat.eqb_spec i' idx) as [E|Hne].
      * rewrite A, Hb in Hi'. discriminate.
      * apply Hpm; [exact Hne|]. apply Lwoken. exact Hi'.
Qed.

Lemma wake_step_inv s j w b s' :
  TInv s -> nth_error (tkwakers s) j = Some w -> wake_step s j w b = Some s' -> TInv s'.
Proof.
  intros HI Hj H. pose proof (ti_wpc s HI j w Hj) as (Hpc & Hlt & H3). unfold wake_step in H.
  destruct (kpc w) as [|[|[|[|[|[|n]]]]]] eqn:Epc; try discriminate.
  - injection H as <-. apply (waker_private_inv s j w _ _ _ HI Hj); unfold claimed; lia.
  - destruct (knxt w) as [|x] eqn:Ew; injection H as <-; apply (waker_private_inv s j w _ _ _ HI Hj); unfold claimed; try lia.
    intros _. discriminate.
  - destruct (negb b && nst_eqb (nth (kti w) (tnext s) NSleep) NSleep) eqn:Ec; injection H as <-.
    + apply andb_true_iff in Ec. destruct Ec as [_ Ec]. apply nst_eqb_true in Ec. apply link_step; auto.
    + apply (waker_private_inv s j w _ _ _ HI Hj); unfold claimed; lia.
  - destruct (negb b && nst_eqb (nth (kti w) (tnext s) NSleep) (knxt w)) eqn:Ec; injection H as <-.
    + apply andb_true_iff in Ec. destruct Ec as [_ Ec]. apply nst_eqb_true in Ec. apply absorb_step; auto.
    + apply (waker_private_inv s j w _ _ _ HI Hj); unfold claimed; lia.
  - destruct (negb b && hd_eqb (thead s) (khd w)) eqn:Ec; injection H as <-.
    + apply andb_true_iff in Ec. destruct Ec as [_ Ec]. apply hd_eqb_true in Ec. apply push_step; auto.
    + apply (waker_private_inv s j w _ _ _ HI Hj); unfold claimed; lia.
  - injection H as <-. apply link_step; [exact HI|exact Hj|left; right; exact Epc].
Qed.

Lemma cons_step_inv s b s' : TInv s -> cons_step s b = Some s' -> TInv s'.
Proof.
  intros HI H. unfold cons_step in H.
  (* most accesses only move the consumer to its next phase, at the same position *)
  destruct (cph s) as [|k [hd|]|[idx|]|[idx|] [nx|]] eqn:Ec; try discriminate;
    try (injection H as <-; apply tinv_set_c_same; [exact HI|rewrite Ec; reflexivity|discriminate]).
  - (* take: CAS *)
    destruct (negb b && hd_eqb (thead s) hd) eqn:Eb; injection H as <-.
    + apply andb_true_iff in Eb. destruct Eb as [_ Eb]. apply hd_eqb_true in Eb. apply (take_step s k hd HI Ec Eb).
    + apply tinv_set_c_same; [exact HI|rewrite Ec; reflexivity|discriminate].
  - (* iterate: swap *)
    destruct (ti_lists s HI) as (lh & li & L). pose proof (l_iter _ _ _ L) as Li. rewrite Ec in Li.
    destruct (chain_some _ _ _ Li) as (x & r & _ & Hx & _). rewrite Hx in H. injection H as <-.
    apply (pop_step s idx x (CIter x)); auto; [rewrite Ec; reflexivity|discriminate].
  - (* drop: store *)
    destruct (ti_lists s HI) as (lh & li & L). pose proof (l_drop _ _ _ L idx nx Ec) as Hn.
    pose proof (l_iter _ _ _ L) as Li. rewrite Ec in Li.
    destruct (chain_some _ _ _ Li) as (x & r & _ & Hx & _). rewrite Hn, Hx in H. injection H as <-.
    apply (pop_step s idx x (CDrop x None)); auto; [rewrite Ec; reflexivity|discriminate].
  - (* drop: load *)
    injection H as <-. apply tinv_set_c_same; [exact HI|rewrite Ec; reflexivity|].
    intros i nx Hd. injection Hd as <- <-. reflexivity.
Qed.

Theorem tk_step_inv s l s' : TInv s -> tk_step s l = Some s' -> TInv s'.
Proof.
  intros HI H. destruct l as [[|j] b|[k| |]]; cbn [tk_step] in H.
  - eapply cons_step_inv; eauto.
  - destruct (nth_error (tkwakers s) j) as [w|] eqn:Ej; [|discriminate]. eapply wake_step_inv; eauto.
  - destruct (cph s) eqn:Ec; try discriminate. injection H as <-.
    apply tinv_set_c_same; [exact HI|rewrite Ec; reflexivity|discriminate].
  - discriminate.
  - destruct (cph s) as [| | it|] eqn:Ec; try discriminate. injection H as <-.
    apply tinv_set_c_same; [exact HI|rewrite Ec; reflexivity|discriminate].
Qed.

Theorem tk_run_inv ls : forall s, TInv s -> TInv (tk_run s ls).
Proof.
  induction ls as [|l r IH]; intros s HI; [exact HI|]. cbn [tk_run].
  destruct (tk_step s l) as [s'|] eqn:E; [apply IH; eapply tk_step_inv; eauto|apply IH; exact HI].
Qed.

Theorem tk_init_inv n ws : (forall i, In i ws -> i < n) -> TInv (tk_init n ws).
Proof.
  intros Hws.
  assert (Hw : forall j w, nth_error (tkwakers (tk_init n ws)) j = Some w -> kpc w = 0 /\ In (kti w) ws).
  { intros j w Hj. apply nth_error_In, in_map_iff in Hj. destruct Hj as (i & <- & Hi). split; [reflexivity|exact Hi]. }
  assert (Hnc : forall j w, nth_error (tkwakers (tk_init n ws)) j = Some w -> ~ claimed w).
  { intros j w Hj Hc. destruct (Hw j w Hj) as [E0 _]. unfold claimed in Hc. lia. }
  constructor.
  - cbn. rewrite !repeat_length. reflexivity.
  - reflexivity.
  - intros j w Hj. destruct (Hw j w Hj) as [E0 Hi]. rewrite E0. cbn [tk_init tnext]. rewrite repeat_length.
    split; [lia|]. split; [apply Hws, Hi|discriminate].
  - exists [], []. constructor; unfold pending; cbn [app].
    + reflexivity.
    + reflexivity.
    + constructor.
    + intros j w Hj Hc. destruct (Hnc j w Hj Hc).
    + intros j k w v Hj _ _ Hc. destruct (Hnc j w Hj Hc).
    + intros i x Hx. cbn [tk_init tnext] in Hx. rewrite nth_repeat in Hx. discriminate.
    + discriminate.
    + intros i Hi. cbn [tk_init woken] in Hi. rewrite nth_repeat in Hi. discriminate.
Qed.

(* the iterator never meets SLEEPING (index out of bounds in the code) *)
Theorem ts_no_panic s : TInv s -> tpanic s = 0.
Proof. intros HI. exact (ti_panic s HI). Qed.

(* no completed wake-up is lost: the task is in the scheduled list, in the part of the list the
   iterator has not reached yet, or claimed by a waker that is about to link it in *)
Theorem ts_no_lost_wake s i :
  TInv s -> nth i (woken s) false = true ->
  exists lh li, chain (tnext s) (snd (thead s)) lh /\ chain (tnext s) (citer (cph s)) li /\
    (In i (lh ++ li) \/ exists j w, nth_error (tkwakers s) j = Some w /\ claimed w /\ kti w = i).
Proof.
  intros HI Hw. destruct (ti_lists s HI) as (lh & li & L). exists lh, li.
  split; [exact (l_head _ _ _ L)|]. split; [exact (l_iter _ _ _ L)|]. exact (l_woken _ _ _ L i Hw).
Qed.

(* in a state where no waker is in flight and the consumer is idle, a woken task is in the
   scheduled list: the next take_scheduled returns it *)
Theorem ts_quiescent_woken_scheduled s i :
  TInv s -> cph s = CIdle -> (forall j w, nth_error (tkwakers s) j = Some w -> ~ claimed w) ->
  nth i (woken s) false = true ->
  exists lh, chain (tnext s) (snd (thead s)) lh /\ In i lh.
Proof.
  intros HI Hc Hnw Hw. destruct (ts_no_lost_wake s i HI Hw) as (lh & li & Lh & Li & P). exists lh. split; [exact Lh|].
  rewrite Hc in Li. apply chain_none in Li. subst li. rewrite app_nil_r in P.
  destruct P as [P|(j & w & Hj & Hcl & _)]; [exact P|]. destruct (Hnw j w Hj Hcl).
Qed.

Theorem tk_reachable_inv n ws ls : (forall i, In i ws -> i < n) -> TInv (tk_run (tk_init n ws) ls).
Proof. intros H. apply tk_run_inv. apply tk_init_inv. exact H. Qed.
