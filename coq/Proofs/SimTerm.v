(* The critical section of a step terminates: with positive periods the loop pulls each entry due at the
   current time once, so the fuel handed to it by step_bounded (one more than the queue length) suffices; a
   stepping call never returns RHang from a state satisfying the queue invariants. *)
Require Import NX.Base.Prelude NX.Model.PQ NX.Model.Sim.
Require Import NX.Proofs.PQProofs NX.Proofs.SimBasic NX.Proofs.SimDriver NX.Proofs.SimQueue NX.Proofs.SimTop NX.Proofs.SimSched.

(* well-formed queue: epochs strictly increase along the item list and stay
   below the next epoch: PQProofs.pq_ok at the type of actions *)
Definition pq_wf (q : pq action) : Prop :=
  epochs_sorted action (items q) /\ forall a, In a (items q) -> (iepoch a < next_epoch q)%N.

Lemma pq_wf_empty : pq_wf pq_empty.
Proof. exact (pq_ok_empty action). Qed.

Lemma pq_wf_insert q k v : pq_wf q -> pq_wf (pq_insert q k v).
Proof. exact (pq_ok_insert action q k v). Qed.

Definition at_time (T : Z) (it : item action) : bool := Z.eqb (fst (ikey it)) T.
Definition cnt (T : Z) (q : pq action) : nat := length (filter (at_time T) (items q)).

Lemma cnt_le_len T q : cnt T q <= pq_len q.
Proof.
  unfold cnt, pq_len. induction (items q) as [|x r IH]; cbn [filter length]; [lia|].
  destruct (at_time T x); cbn [length]; lia.
Qed.

Lemma cnt_insert_other T q k v : fst k <> T -> cnt T (pq_insert q k v) = cnt T q.
Proof.
  intros NE. unfold cnt, pq_insert; cbn [items]. rewrite filter_app, app_length. cbn [filter].
  unfold at_time at 2; cbn [ikey fst]. destruct (Z.eqb_spec (fst k) T); [congruence|]. cbn. lia.
Qed.

Lemma pq_pull_wf q k a q' : pq_wf q -> pq_pull q = (Some (k, a), q') ->
  exists m, pq_peek_item q = Some m /\ k = ikey m /\ a = ival m /\ In m (items q) /\ pq_wf q' /\
    (forall T, cnt T q = cnt T q' + if at_time T m then 1 else 0) /\
    (forall y, In y (items q') -> item_lt action m y) /\
    (forall y, In y (items q) -> y = m \/ In y (items q')).
Proof.
  intros [Hs Hb] H.
  destruct (pq_pull_char action q k a q' Hs H) as (m & l1 & l2 & EP & -> & -> & E1 & -> & Hs' & Hlt).
  exists m. cbn [items next_epoch]. do 3 (split; [auto|]). split; [rewrite E1; apply in_elt|].
  split; [split; [exact Hs'|]|split; [|split; [exact Hlt|]]].
  - intros x Hx. apply Hb. rewrite E1. apply in_app_or in Hx. apply in_or_app. cbn [In]. tauto.
  - intros T. unfold cnt. rewrite E1. cbn [items]. rewrite !filter_app, !app_length. cbn [filter].
    destruct (at_time T m); cbn [length]; lia.
  - intros y Hy. rewrite E1 in Hy. apply in_elt_inv in Hy. destruct Hy as [<-|Hy]; auto.
Qed.

Lemma peek_next_wf fuel : forall s q bound nk q',
  pq_wf q -> peek_next fuel s q bound = (nk, q') ->
  pq_wf q' /\ (forall T, cnt T q' <= cnt T q) /\
  (forall y, In y (items q) -> In y (items q') \/ key_cancelled s (akey (ival y)) = true).
Proof.
  intros s q bound nk q' HW H. revert HW.
  apply (peek_next_steps s bound (fun q q' => pq_wf q -> pq_wf q' /\ (forall T, cnt T q' <= cnt T q) /\
           forall y, In y (items q) -> In y (items q') \/ key_cancelled s (akey (ival y)) = true)) in H;
    [apply H|auto|].
  intros q0 k a q1 q2 EL EC IH HW.
  destruct (pq_pull_wf _ _ _ _ HW EL) as (m & _ & _ & -> & _ & W1 & C1 & _ & A1).
  destruct (IH W1) as (W2 & C2 & A2). split; [exact W2|]. split.
  - intros T. specialize (C1 T). specialize (C2 T). lia.
  - intros y Hy. destruct (A1 y Hy) as [->|Hy1]; [right; exact EC|apply A2, Hy1].
Qed.

Lemma pull_next_wf q k a q1 : pq_wf q -> pull_next q = Some (k, a, q1) ->
  exists m, pq_peek_item q = Some m /\ k = ikey m /\ a = ival m /\ In m (items q) /\ pq_wf q1 /\
    (forall y, In y (items q) -> y = m \/ In y (items q1)) /\
    (per_pos a -> cnt (fst k) q1 < cnt (fst k) q /\ forall y, In y (items q1) -> item_lt action m y).
Proof.
  intros HW. unfold pull_next. destruct (pq_pull q) as [[[k0 a0]|] q0] eqn:EL; [|discriminate].
  destruct (pq_pull_wf _ _ _ _ HW EL) as (m & EP & -> & -> & Hm & W & C & Hlt & Hall).
  intros H; injection H as <- <- <-. exists m. do 4 (split; [auto|]).
  specialize (C (fst (ikey m))). unfold at_time in C at 1. rewrite Z.eqb_refl in C.
  destruct (aperiod (ival m)) as [p|] eqn:EA.
  - split; [apply pq_wf_insert; exact W|]. split.
    + intros y Hy. destruct (Hall y Hy) as [->|Hy']; [auto|right]. cbn [pq_insert items]. apply in_or_app. auto.
    + intros PP. pose proof (per_pos_some _ _ EA PP) as Hp. split.
      * rewrite cnt_insert_other; [lia|]. cbn [fst]. lia.
      * cbn [pq_insert items]. intros y Hy. apply in_app_or in Hy. destruct Hy as [Hy|[<-|[]]]; [apply Hlt, Hy|].
        left. unfold key_lt. cbn [ikey fst]. lia.
  - split; [exact W|]. split; [exact Hall|]. intros _. split; [lia|exact Hlt].
Qed.

Lemma pull_next_some q m : pq_peek_item q = Some m -> exists q1, pull_next q = Some (ikey m, ival m, q1).
Proof. unfold pull_next, pq_pull. intros ->. eauto. Qed.

(* what holds whenever the loop is entered *)
Definition crit_pre (q : pq action) (cur : key) : Prop :=
  pq_wf q /\ q_from q (fst cur) /\ exists m, pq_peek_item q = Some m /\ ikey m = cur.

Lemma crit_pre_peek q cur :
  pq_wf q -> q_from q (fst cur) -> (exists a0, pq_peek q = Some (cur, a0)) -> crit_pre q cur.
Proof.
  intros HW HQ [a0 HP]. split; [exact HW|]. split; [exact HQ|]. unfold pq_peek in HP.
  destruct (pq_peek_item q) as [m|]; [|discriminate]. injection HP as <- _. eauto.
Qed.

(* one round from q to q2 with next key nk: it pulls the head m (of key cur) with action a *)
Set Implicit Arguments.
Record crit_round_facts (s : state) (q : pq action) (cur : key) (a : action) (nk : option key)
    (q2 : pq action) (m : item action) : Prop := {
  cr_peek : pq_peek_item q = Some m;
  cr_in : In m (items q);
  cr_act : a = ival m;
  cr_wf : pq_wf q2;
  cr_cnt : cnt (fst cur) q2 < cnt (fst cur) q;
  cr_after : forall y, In y (items q2) -> item_lt action m y;
  cr_all : forall y, In y (items q) -> y = m \/ In y (items q2) \/ key_cancelled s (akey (ival y)) = true;
  cr_next : forall k', nk = Some k' -> fst k' = fst cur -> crit_pre q2 k'
}.
Unset Implicit Arguments.

Lemma crit_round fuel s q bound cur k a q1 nk q2 :
  crit_pre q cur -> pull_next q = Some (k, a, q1) -> peek_next fuel s q1 bound = (nk, q2) ->
  exists m, crit_round_facts s q cur a nk q2 m.
Proof.
  intros (HW & HQ & m0 & EP0 & EK) EPN EN.
  destruct (pull_next_wf _ _ _ _ HW EPN) as (m & EP & -> & -> & Hm & W1 & Hall & HP).
  rewrite EP0 in EP. injection EP as ->.
  destruct (pull_next_from _ _ _ _ _ HQ EPN) as (_ & PP & HQ1).
  destruct (HP PP) as [C1 Hlt].
  destruct (peek_next_wf _ _ _ _ _ _ W1 EN) as (W2 & C2 & A2).
  pose proof (peek_next_sub _ _ _ _ _ _ EN) as Hsub.
  assert (HQ2 : q_from q2 (fst cur)) by (intros y Hy; apply HQ1, Hsub, Hy).
  exists m. rewrite EK in C1. constructor; [exact EP0|exact Hm|reflexivity|exact W2| | | |].
  - specialize (C2 (fst cur)). lia.
  - intros y Hy. apply Hlt, Hsub, Hy.
  - intros y Hy. destruct (Hall y Hy) as [E|Hy1]; [auto|right; apply A2, Hy1].
  - intros k' -> E. apply crit_pre_peek; [exact W2|rewrite E; exact HQ2|].
    destruct (peek_next_head _ _ _ _ _ _ EN) as [a1 (H1 & _)]. eauto.
Qed.

Lemma crit_returns fuel : forall s q bound cur group groups,
  crit_pre q cur -> cnt (fst cur) q < fuel ->
  exists q' gs, crit fuel s q bound cur group groups = Some (q', gs) /\ pq_wf q'.
Proof.
  induction fuel as [|f IH]; intros s q bound cur group groups PRE HC; [lia|].
  cbn [crit]. pose proof PRE as (_ & _ & m & EP & _).
  destruct (pull_next_some _ _ EP) as [q1 EPN]. rewrite EPN.
  destruct (peek_next (S (pq_len q1)) s q1 bound) as [nk q2] eqn:EN.
  destruct (crit_round _ _ _ _ _ _ _ _ _ _ PRE EPN EN) as [m' F].
  pose proof (cr_wf F) as W2. pose proof (cr_cnt F) as C.
  destruct nk as [k'|]; cbn [opt_key_eqb]; [|eauto].
  destruct (key_eqb_spec k' cur) as [->|NE]; [apply IH; [apply (cr_next F); reflexivity|lia]|].
  destruct (Z.eqb_spec (fst k') (fst cur)) as [E|E]; [|eauto].
  apply IH; [apply (cr_next F); auto|]. rewrite E. lia.
Qed.

Definition qwf (s : state) : Prop := pq_wf (queue s).

Lemma sched_request_wf s origin d mk keyed period chk s' code k :
  qwf s -> sched_request s origin d mk keyed period chk = (s', code, k) -> qwf s'.
Proof.
  intros HW H. apply sched_request_cases in H. destruct H as (_ & [(_ & -> & _)|(_ & _ & _ & ->)]); [exact HW|].
  destruct keyed; apply pq_wf_insert; exact HW.
Qed.

(* in the form sim_run_keeps asks of a predicate on the queue and the time *)
Lemma qwf_ext s s' : queue s' = queue s -> now s' = now s -> qwf s -> qwf s'.
Proof. unfold qwf. intros -> _. auto. Qed.

Lemma sim_run_wf b fuel ch s s' r nd : qwf s -> sim_run b fuel ch s = (s', r, nd) -> qwf s'.
Proof.
  apply (sim_run_keeps qwf qwf_ext). intros s0 origin d mk keyed period. apply sched_request_wf.
Qed.

Lemma sim_run_not_hang b fuel ch s s' r nd : sim_run b fuel ch s = (s', r, nd) -> r <> RHang.
Proof. intros H ->. destruct (sim_run_res _ _ _ _ _ _ _ H) as [X|[X|X]]; discriminate X. Qed.

Lemma step_bounded_returns b fuel ch s bound s' r t nd :
  qwf s -> q_inv s -> step_bounded b fuel ch s bound = (s', r, t, nd) -> r <> RHang /\ qwf s'.
Proof.
  intros HW HI H. apply step_bounded_cases in H.
  destruct H as [(-> & -> & _)|(nk & q0 & EN & H)]; [split; [discriminate|exact HW]|].
  destruct (peek_next_wf _ _ _ _ _ _ HW EN) as (W0 & _).
  destruct H as [(_ & -> & -> & _)|(k & -> & H)]; [split; [discriminate|exact W0]|].
  destruct (peek_next_from _ _ _ _ _ _ _ HI EN) as (_ & HSome). destruct (HSome k eq_refl) as (_ & _ & HQ0).
  destruct (peek_next_head _ _ _ _ _ _ EN) as [a1 (H1 & _)].
  assert (PRE : crit_pre q0 k) by (apply crit_pre_peek; eauto).
  cbv zeta in H.
  destruct (crit_returns (S (pq_len q0)) (add_log (set_now (set_queue s q0) (fst k)) (ETime (fst k)))
              q0 bound k [] [] PRE) as (q1' & gs & EC' & W1).
  { pose proof (cnt_le_len (fst k) q0). lia. }
  destruct H as [[EC _]|(q1 & groups & s3 & EC & FQ & _ & _ & _ & H)]; [congruence|].
  rewrite EC' in EC. injection EC as -> _.
  assert (W3 : qwf s3) by (unfold qwf; rewrite FQ; exact W1).
  destruct H as [(lag & _ & -> & -> & _)|(_ & ER & _)]; [split; [discriminate|exact W3]|].
  split; [eapply sim_run_not_hang, ER|eapply sim_run_wf; eauto].
Qed.

Lemma step_until_loop_returns b n fuel ch s target nd0 s' r nd :
  qwf s -> q_inv s -> (now s <= target)%Z ->
  step_until_loop b n fuel ch s target nd0 = (s', r, nd) -> r <> RHang /\ qwf s'.
Proof.
  intros HW HI HT.
  apply (step_until_loop_steps b fuel ch target (fun s => qwf s /\ q_inv s /\ (now s <= target)%Z)
           (fun s' r => r <> RHang /\ qwf s')); [| |auto].
  { intros s0 (HW0 & _). split; [discriminate|exact HW0]. }
  intros s0 s1 r1 t1 nd1 (HW0 & HI0 & L0) ES.
  destruct (step_bounded_returns _ _ _ _ _ _ _ _ _ HW0 HI0 ES) as [NH W1].
  destruct (is_ok r1); [|auto]. destruct t1 as [x|]; [|split; [|intros lag]; (split; [discriminate|exact W1])].
  destruct (Z.eqb x target); [split; [discriminate|exact W1]|].
  destruct (step_bounded_inv _ _ _ _ _ _ _ _ _ HI0 ES NH) as (HI1 & _ & HS & _).
  destruct (HS x eq_refl) as (E1 & _ & E3). cbn in E3. apply Z.leb_le in E3. split; [exact W1|]. split; [exact HI1|lia].
Qed.

(* Every command returns (never RHang) and keeps both queue invariants. *)
Theorem exec_cmd_returns b fuel s c ch s' r nd :
  bugF4 b = false -> qwf s -> q_inv s -> exec_cmd b fuel s c ch = (s', r, nd) -> r <> RHang /\ qwf s'.
Proof.
  intros HF HW HI H. destruct (is_sched_cmd c) eqn:HS.
  { destruct (sched_cmd_cases _ _ _ _ _ _ _ _ HS H) as (d & mk & keyed & p & chk & slot & s1 & code & k & ES & -> & -> & _).
    split; [discriminate|]. apply (qwf_ext s1); [apply store_dkey_queue..|]. eapply sched_request_wf; eauto. }
  destruct (is_process c) eqn:HP.
  { destruct (process_cmd_cases _ _ _ _ _ _ _ _ HP H) as [[-> ->]|(s0 & r0 & ER & Q & N & R)];
      [split; [discriminate|exact HW]|].
    split; [|eapply sim_run_wf; [|exact ER]; apply (qwf_ext s); auto].
    pose proof (sim_run_not_hang _ _ _ _ _ _ _ ER). destruct R as [->|(_ & [->|[x ->]])]; [auto|discriminate..]. }
  destruct (other_cmd_cases _ _ _ _ _ _ _ _ HS HP H) as [(Q & N & _ & NH & _)|[(_ & t & ES)|(d & _ & L & EL)]].
  - split; [exact NH|apply (qwf_ext s); auto].
  - eapply step_bounded_returns; eauto.
  - eapply step_until_loop_returns; eauto.
Qed.

Lemma init_wf b fuel ich s r nd : sim_init b fuel ich = (s, r, nd) -> qwf s /\ r <> RHang.
Proof.
  unfold sim_init, clock_sync. intros H. split; [|eapply sim_run_not_hang, H].
  eapply sim_run_wf; [|exact H]. apply pq_wf_empty.
Qed.

Theorem states_all b fuel cs : forall s,
  bugF4 b = false -> qwf s -> q_inv s ->
  (forall p, In p (states_of b fuel s cs) -> q_inv (fst p) /\ qwf (fst p) /\ snd p <> RHang) /\
  nondecreasing (now s) (map (fun p => now (fst p)) (states_of b fuel s cs)).
Proof.
  intros s HF HW HI.
  destruct (states_of_inv b fuel (fun s => q_inv s /\ qwf s) (fun _ => True) (fun r => r <> RHang))
    with (cs := cs) (s := s) as [A B]; auto.
  - intros s0 c ch s' r nd [HI0 HW0] EC _.
    destruct (exec_cmd_returns _ _ _ _ _ _ _ _ HF HW0 HI0 EC) as [NH W1].
    destruct (exec_cmd_inv _ _ _ _ _ _ _ _ HF HI0 EC NH) as (X & Y & _). auto.
  - split; [|exact B]. intros p Hp. destruct (A p Hp) as [[X Y] Z]. auto.
Qed.

(* from SimInit::init on: every state ever reached by a driver sequence *)
Theorem sim_all b fuel ich cs s0 r0 nd0 :
  bugF4 b = false -> sim_init b fuel ich = (s0, r0, nd0) ->
  r0 <> RHang /\ q_inv s0 /\ qwf s0 /\ now s0 = bt0 b /\
  (forall p, In p (states_of b fuel s0 cs) -> q_inv (fst p) /\ qwf (fst p) /\ snd p <> RHang) /\
  nondecreasing (bt0 b) (map (fun p => now (fst p)) (states_of b fuel s0 cs)).
Proof.
  intros HF H. destruct (init_wf _ _ _ _ _ _ H) as [W0 N0]. destruct (init_inv _ _ _ _ _ _ H) as [I0 T0].
  destruct (states_all b fuel cs s0 HF W0 I0) as [A B]. rewrite T0 in B.
  split; [exact N0|]. split; [exact I0|]. split; [exact W0|]. split; [exact T0|]. split; [exact A|exact B].
Qed.
