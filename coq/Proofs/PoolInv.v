(* The inductive invariant of the pool protocol for the barrier of the repaired tree. *)
Require Import NX.Base.Prelude NX.Base.ListX NX.Model.Pool.

Global Arguments W : simpl never.

Definition parkish (pc : ppc) : bool :=
  match pc with
  | WPost [BPark] => true
  | WPost [BUnparkMain; BPark] => true
  | _ => false
  end.

Definition last_pc (pc : ppc) : bool :=
  match pc with
  | WChk => true
  | WPost [BSetAllInactive; BUnparkMain; BPark] => true
  | _ => false
  end.

Definition pc_ok (pc : ppc) : Prop :=
  match pc with
  | WPre ops => ops = [BUpdate] \/ ops = []
  | WPost ops => ops = [BPark] \/ ops = [] \/ ops = [BSetAllInactive; BUnparkMain; BPark]
                 \/ ops = [BUnparkMain; BPark] \/ ops = [BBeginSearch]
  | _ => True
  end.

Definition clean (w : pworker) : Prop := wlq w = 0 /\ wslot w = false /\ whand w = 0.

Definition local_ok (w : pworker) : Prop :=
  match wpc w with
  | WPre [BUpdate] => clean w
  | WPre _ | WTry | WChk | WPost _ => clean w /\ wcnt w = 0%Z
  | WSearch => clean w
  | WRun | WTask | WSched2 | WAct _ | WUnpark _ => whand w = 0
  | _ => True
  end.

Fixpoint sumc (l : list pworker) : Z :=
  match l with [] => 0%Z | w :: r => (wcnt w + sumc r)%Z end.

Definition main_quiet (m : mpc) : bool :=
  match m with MIdle | MAct _ | MRead => true | _ => false end.

Lemma parkish_cases pc : parkish pc = true -> pc = WPost [BPark] \/ pc = WPost [BUnparkMain; BPark].
Proof. destruct pc as [| | |[|[] [|[] [|]]]| | | | | | | |]; try discriminate; auto. Qed.

Lemma last_not_parkish pc : last_pc pc = true -> parkish pc = false.
Proof.
  intros L. destruct (parkish pc) eqn:P; [|reflexivity]. destruct (parkish_cases _ P) as [-> | ->]; discriminate L.
Qed.

Lemma parkish_local w : parkish (wpc w) = true -> local_ok w -> no_work w /\ wcnt w = 0%Z.
Proof.
  unfold local_ok, no_work, clean. intros P. destruct (parkish_cases _ P) as [-> | ->]; cbn; tauto.
Qed.

Lemma local_ok_stolen w k : local_ok w -> local_ok (set_lq w (wlq w - k)).
Proof.
  unfold local_ok, clean. cbn. destruct (wpc w) as [[|[] [|]]| | |ops| | | | | | |u|u]; cbn; intuition lia.
Qed.

(* main is outside run() or still about to wake a worker: tasks may sit in the injector with no worker active *)
Definition main_feeds (m : mpc) : bool :=
  match m with MIdle | MAct _ | MUnpark _ => true | _ => false end.

Record Base (s : pstate) : Prop := {
  i_len : 1 <= length (pws s);
  i_pc : forall j, pc_ok (wpc (W s j));
  i_loc : forall j, local_ok (W s j);
  i_bit : forall j, parkish (wpc (W s j)) = false -> wact (W s j) = true;
  i_wact : forall x v, wpc (W s x) = WAct v -> v < length (pws s);
  i_last : forall j, last_pc (wpc (W s j)) = true -> forall v, v <> j -> wact (W s v) = false;
  i_last0 : forall j, wpc (W s j) = WPost [BSetAllInactive; BUnparkMain; BPark] -> pinj s = 0;
  i_main : main_quiet (pmain s) = true -> forall v, wact (W s v) = false;
  i_snap : forall a, pmain s = MAct a -> a = acts s;
  i_inj : 0 < pinj s -> (exists v, wact (W s v) = true) \/ main_feeds (pmain s) = true;
  i_sum : (pmsg s + sumc (pws s) = pnet s)%Z;
  i_pan : ppanic s = 0;
  i_reads : forall m n, In (m, n) (preads s) -> m = n;
  (* progress: the unpark of the main thread that is needed is on its way *)
  i_mwake : pmain s = MPark -> (forall v, wact (W s v) = false) ->
            pmtok s = true \/ exists x, wpc (W s x) = WPost [BUnparkMain; BPark]
}.

(* Wake-ups are neither lost nor duplicated.  Worker v is OWED a wake-up when its bit is set while it is
   parked or about to park; a wake-up is GIVEN to it by the token of its parker, by each worker about to
   unpark it, and by the main thread about to unpark it.  The two always balance: a token is only ever
   held by a worker that is owed one, nobody unparks twice, and a worker whose bit was set is never left
   parked. *)
Definition unparks (v : nat) (pc : ppc) : bool := match pc with WUnpark u => Nat.eqb v u | _ => false end.
Definition munparks (v : nat) (m : mpc) : bool := match m with MUnpark u => Nat.eqb v u | _ => false end.
Definition unparkers (s : pstate) (v : nat) : nat :=
  list_sum (map (fun w => Nat.b2n (unparks v (wpc w))) (pws s)).
Definition wake_given (s : pstate) (v : nat) : nat :=
  Nat.b2n (wtok (W s v)) + unparkers s v + Nat.b2n (munparks v (pmain s)).
Definition wake_owed (w : pworker) : nat := Nat.b2n (wact w && parkish (wpc w)).

Record Inv (s : pstate) : Prop := {
  i_base :> Base s;
  i_credit : forall v, wake_given s v = wake_owed (W s v)
}.

Lemma W_upd s s' j w' x :
  pws s' = lupd (pws s) j w' -> j < length (pws s) -> W s' x = if Nat.eqb x j then w' else W s x.
Proof. intros E H. unfold W. rewrite E. apply nth_lupd_lt, H. Qed.

Lemma W_set_w s j w x : j < length (pws s) -> W (set_w s j w) x = if Nat.eqb x j then w else W s x.
Proof. apply W_upd. reflexivity. Qed.

Lemma W_set_w_other s v x j w : nth_error (pws s) j = Some w -> nth_error (pws s) v = Some x -> v <> j ->
  forall x', j < length (pws (set_w s v x')) /\ W (set_w s v x') j = w.
Proof.
  intros Hj Hv Hvj x'. destruct (nth_error_nth_lt _ _ _ wdef Hj) as [HW Lj]. split; [cbn; rewrite lupd_length; exact Lj|].
  rewrite W_set_w by (eapply nth_error_some_lt, Hv). destruct (Nat.eqb_spec j v); [congruence|exact HW].
Qed.

Lemma W_nth_error s j w : nth_error (pws s) j = Some w -> W s j = w /\ j < length (pws s).
Proof. apply nth_error_nth_lt. Qed.

Lemma W_out s j : length (pws s) <= j -> W s j = wdef.
Proof. intros H. unfold W. apply nth_overflow; auto. Qed.

Lemma W_in_range s j : W s j <> wdef -> j < length (pws s).
Proof. intros H. destruct (Nat.lt_ge_cases j (length (pws s))) as [L|L]; [exact L|]. destruct H. apply W_out, L. Qed.

Lemma W_init n j : W (p_init n) j = wdef.
Proof. apply nth_repeat. Qed.

Lemma sumc_lupd l j w : j < length l -> sumc (lupd l j w) = (sumc l - wcnt (nth j l wdef) + wcnt w)%Z.
Proof.
  revert j; induction l as [|y l IH]; intros j H; cbn [length] in H; [lia|].
  destruct j; cbn [lupd sumc nth]; [lia|]. rewrite IH by lia. lia.
Qed.

Lemma sumc_zero l : (forall j, wcnt (nth j l wdef) = 0%Z) -> sumc l = 0%Z.
Proof.
  induction l as [|y l IH]; intros H; cbn [sumc]; [reflexivity|].
  rewrite IH; [|intros j; apply (H (S j))]. specialize (H 0); cbn in H. lia.
Qed.

Lemma acts_nth s v : nth v (acts s) false = wact (W s v).
Proof. unfold acts, W. change false with (wact wdef). apply map_nth. Qed.

Lemma all_inactive_spec l : all_inactive l = true <-> forall v, nth v l false = false.
Proof.
  unfold all_inactive. induction l as [|b l IH]; cbn [forallb].
  - split; auto. intros _ v; destruct v; reflexivity.
  - rewrite andb_true_iff, IH. split.
    + intros [Hb H] v; destruct v; cbn [nth]; [destruct b; cbn in *; congruence|apply H].
    + intros H; split; [specialize (H 0); cbn in H; subst; reflexivity|intros v; apply (H (S v))].
Qed.

Lemma all_inactive_acts s : all_inactive (acts s) = true <-> forall v, wact (W s v) = false.
Proof.
  rewrite all_inactive_spec. split; intros H v; [rewrite <- acts_nth|rewrite acts_nth]; apply H.
Qed.

Lemma not_all_inactive_ex l : all_inactive l = false -> exists v, nth v l false = true.
Proof.
  unfold all_inactive. induction l as [|b l IH]; cbn [forallb]; [discriminate|].
  destruct b; cbn [negb andb]; [intros _; exists 0; reflexivity|].
  intros H. destruct (IH H) as [v Hv]. exists (S v). exact Hv.
Qed.

(* active_workers == 1 << j, given that the bit of j is set *)
Lemma only_bit_iff l j : j < length l -> nth j l false = true ->
  (only_bit l j = true <-> forall v, v <> j -> nth v l false = false).
Proof.
  revert j; induction l as [|b l IH]; intros j Hj Hb; cbn [length] in Hj; [lia|].
  destruct j; cbn [only_bit nth] in *.
  - subst b. cbn [andb]. rewrite all_inactive_spec. split.
    + intros H [|v] Hv; [lia|apply H].
    + intros H v. apply (H (S v)). lia.
  - rewrite andb_true_iff, (IH j) by (auto; lia). split.
    + intros [Nb H] [|v] Hv; cbn [nth]; [destruct b; [discriminate|reflexivity]|apply H; lia].
    + intros H. split; [rewrite (H 0) by lia; reflexivity|]. intros v Hv. apply (H (S v)). lia.
Qed.

Lemma unparkers_ge s x v : wpc (W s x) = WUnpark v -> 1 <= unparkers s v.
Proof.
  intros H. assert (Hx : x < length (pws s)) by (apply W_in_range; intros E; rewrite E in H; discriminate).
  assert (L : Nat.b2n (unparks v (wpc (W s x))) <= unparkers s v)
    by apply (list_sum_map_ge (fun w => Nat.b2n (unparks v (wpc w))) (pws s) x wdef Hx).
  rewrite H in L. cbn in L. rewrite Nat.eqb_refl in L. exact L.
Qed.

Lemma unparkers_ex s v : 0 < unparkers s v -> exists x, wpc (W s x) = WUnpark v.
Proof.
  intros H. destruct (list_sum_map_pos _ _ wdef H) as (x & _ & Hx). exists x. change (nth x (pws s) wdef) with (W s x) in Hx.
  destruct (wpc (W s x)) as [| | | | | | | | | | |u]; cbn in Hx; try lia.
  destruct (Nat.eqb_spec v u) as [E|E]; [rewrite E; reflexivity|cbn in Hx; lia].
Qed.

Lemma owed_spec w : wake_owed w = 1 /\ wact w = true /\ parkish (wpc w) = true \/ wake_owed w = 0 /\ (wact w = false \/ parkish (wpc w) = false).
Proof. unfold wake_owed. destruct (wact w), (parkish (wpc w)); cbn; auto. Qed.

Lemma tok_owed s v : Inv s -> wtok (W s v) = true -> wact (W s v) = true /\ parkish (wpc (W s v)) = true.
Proof.
  intros I H. pose proof (i_credit s I v) as C. unfold wake_given in C. rewrite H in C.
  destruct (owed_spec (W s v)) as [(_ & A)|(Z & _)]; [exact A|cbn in C; lia].
Qed.

Lemma unpark_owed s x v : Inv s -> wpc (W s x) = WUnpark v ->
  wact (W s v) = true /\ parkish (wpc (W s v)) = true /\ wtok (W s v) = false /\ pmain s <> MUnpark v.
Proof.
  intros I H. pose proof (i_credit s I v) as C. pose proof (unparkers_ge s x v H) as U. unfold wake_given in C.
  destruct (owed_spec (W s v)) as [(E & A & P)|(Z & _)]; [|lia].
  refine (conj A (conj P (conj _ _))).
  - destruct (wtok (W s v)); [cbn in C; lia|reflexivity].
  - intros M. rewrite M in C. cbn in C. rewrite Nat.eqb_refl in C. cbn in C. lia.
Qed.

Lemma munpark_owed s v : Inv s -> pmain s = MUnpark v ->
  wact (W s v) = true /\ parkish (wpc (W s v)) = true /\ wtok (W s v) = false.
Proof.
  intros I M. pose proof (i_credit s I v) as C. unfold wake_given in C. rewrite M in C. cbn in C. rewrite Nat.eqb_refl in C.
  destruct (owed_spec (W s v)) as [(E & A & P)|(Z & _)]; [|cbn in C; lia].
  refine (conj A (conj P _)). destruct (wtok (W s v)); [cbn in C; lia|reflexivity].
Qed.

Lemma wake_pending s v : Inv s -> wact (W s v) = true -> parkish (wpc (W s v)) = true ->
  wtok (W s v) = true \/ (exists x, wpc (W s x) = WUnpark v) \/ pmain s = MUnpark v.
Proof.
  intros I A P. pose proof (i_credit s I v) as C. unfold wake_given, wake_owed in C. rewrite A, P in C. cbn in C.
  destruct (wtok (W s v)); [left; reflexivity|right]. cbn in C.
  destruct (Nat.eq_dec (unparkers s v) 0) as [Z|Z]; [right|left; apply unparkers_ex; lia].
  rewrite Z in C. destruct (pmain s) as [| |u| | |]; cbn in C; try lia.
  destruct (Nat.eqb_spec v u) as [E|E]; [rewrite E; reflexivity|cbn in C; lia].
Qed.

Lemma inv_init n : 1 <= n -> Inv (p_init n).
Proof.
  intros Hn. split; [constructor|].
  - cbn. rewrite repeat_length. exact Hn.
  - intros j. rewrite W_init. left. reflexivity.
  - intros j. rewrite W_init. repeat split.
  - intros j. rewrite W_init. discriminate.
  - intros x v. rewrite W_init. discriminate.
  - intros j. rewrite W_init. discriminate.
  - intros j. rewrite W_init. discriminate.
  - intros _ v. rewrite W_init. reflexivity.
  - discriminate.
  - intros F. inversion F.
  - cbn. apply sumc_zero. intros j. rewrite nth_repeat. reflexivity.
  - reflexivity.
  - intros m k [].
  - discriminate.
  - intros v. unfold wake_given, unparkers. rewrite W_init. cbn. rewrite (list_sum_map_zero _ _ wdef); [reflexivity|].
    intros i. rewrite nth_repeat. reflexivity.
Qed.

Lemma p_run_invariant B (P : pstate -> Prop) :
  (forall s l s', P s -> p_step B s l = Some s' -> P s') -> forall ls s, P s -> P (p_run B s ls).
Proof.
  intros Hstep. induction ls as [|l ls IH]; intros s H; cbn [p_run]; [exact H|].
  destruct (p_step B s l) as [s'|] eqn:E; apply IH; [eapply Hstep; eauto|exact H].
Qed.
