(* The channel protocol keeps its invariant along every execution; consequences. *)
Require Import NX.Base.Prelude NX.Base.ListX NX.Model.Chan NX.Proofs.ChanInv NX.Proofs.ChanSteps.

(* `S n - n` stays a subtraction under cbn, for lia to read *)
Local Arguments Nat.sub : simpl nomatch.

Lemma sender_ok_posted w : sender_ok (cmk_s (SPost (cp_send chan_fixed)) false w false).
Proof. exact (conj eq_refl (conj eq_refl (or_introl eq_refl))). Qed.

Lemma sender_step_inv s x v pick sp s' :
  CInv s -> nth_error (csnd s) x = Some v -> sender_step chan_fixed s x v pick sp = Some s' -> CInv s'.
Proof.
  intros I Hn Hs. destruct (S_nth_error _ _ _ Hn) as [HS Hx].
  pose proof (cinv_sender s x I) as Hok. rewrite HS in Hok. unfold sender_ok in Hok. unfold sender_step in Hs.
  (* the fields of v laid open: Hok is the row of its pc *)
  destruct v as [pc i w h]. cbn [spc_ sin swk sh] in Hok, Hs.
  destruct pc as [| | | | | | |ops].
  - discriminate.
  - (* SPoll: out of the wait set *)
    injection Hs as <-. apply (sender_keeps s x _ SCheck1 false false I Hn); [split; reflexivity|discriminate|discriminate].
  - (* SCheck1 *)
    destruct Hok as [-> ->]. destruct (ctry_push s) as [s1|] eqn:Ep; injection Hs as <-.
    + apply (sender_push s s1 x _ I Hx Ep); [apply sender_ok_posted|reflexivity].
    + apply (sender_full s x _ _ I Hn Ep); [repeat split|reflexivity].
  - (* SIns: into the wait set *)
    destruct Hok as (-> & -> & ->). injection Hs as <-.
    apply (sender_keeps s x _ SCheck2 true false I Hn); [split; reflexivity|discriminate|discriminate].
  - (* SCheck2 *)
    destruct (ctry_push s) as [s1|] eqn:Ep; injection Hs as <-.
    + apply (sender_push s s1 x _ I Hx Ep); [|reflexivity]. destruct i; [exact Hok|exact Logic.I].
    + apply (sender_full s x _ _ I Hn Ep); [|reflexivity]. destruct i; [split; [apply Hok|reflexivity]|exact Hok].
  - (* SCancel *)
    destruct i.
    + destruct Hok as [-> ->]. injection Hs as <-.
      apply (sender_keeps s x _ _ false false I Hn); [apply sender_ok_posted|discriminate|left; reflexivity].
    + (* x hands the notification it may hold over to the sender picked *)
      destruct (cnotify_one s pick) as [s1|] eqn:En; [|discriminate].
      destruct (cnotify_one_inv s pick s1 I En) as (I1 & M1 & _).
      destruct (nth_error (csnd s1) x) as [v1|] eqn:Hn1; [|discriminate]. injection Hs as <-.
      apply (sender_upd s1 (cocc s1) (cavail s1) x _ I1 (proj2 (S_nth_error _ _ _ Hn1)));
        [left; split; reflexivity|apply sender_ok_posted|right; right; exact M1|discriminate|left; reflexivity].
  - (* SSleep *)
    destruct (w || sp); [|discriminate]. injection Hs as <-.
    apply (sender_keeps s x _ SPoll i false I Hn); [|discriminate|discriminate].
    destruct i; [split; [reflexivity|apply Hok]|exact Logic.I].
  - (* SPost *)
    destruct Hok as (-> & -> & Hpost). destruct Hpost as [->|[->| ->]]; injection Hs as <-.
    + (* receiver_signal.notify(): the receiver's waker, if registered, is taken and called first *)
      set (s1 := if rreg s then cset_r s (rpc_ s) false true (rpend s) else s) in *.
      assert (I1 : CInv s1) by (unfold s1; destruct (rreg s); [apply recv_woken|]; exact I).
      assert (Hn1 : nth_error (csnd s1) x = Some (cmk_s (SPost [SNotifyRecv; SCountInc]) false w false))
        by (unfold s1; destruct (rreg s); exact Hn).
      assert (R1 : rreg s1 = false) by (unfold s1; destruct (rreg s) eqn:E; [reflexivity|exact E]).
      apply (sender_keeps s1 x _ (SPost [SCountInc]) false w I1 Hn1);
        [repeat split; right; left; reflexivity|discriminate|right; exact R1].
    + apply cinv_count, (sender_keeps s x _ (SPost []) false w I Hn);
        [repeat split; right; right; reflexivity|discriminate|discriminate].
    + apply (sender_keeps s x _ SIdle false w I Hn); [split; reflexivity|discriminate|discriminate].
Qed.

Lemma rpend_spec s : CInv s -> rpend s = match rpc_ s with RGot [RNotifyOne] => true | _ => false end.
Proof.
  intros I. destruct (rpend s) eqn:E; [rewrite (proj1 (c_rp s I) E); reflexivity|].
  destruct (rpc_ s) as [| | | |[|[] [|]]|] eqn:Epc; try reflexivity. rewrite <- E. apply (c_rp s I). exact Epc.
Qed.

Lemma recv_step_inv s pick sp s' : CInv s -> recv_step chan_fixed s pick sp = Some s' -> CInv s'.
Proof.
  intros I Hs. unfold recv_step in Hs. pose proof (rpend_spec s I) as Rp. pose proof (c_got s I) as Hgot.
  destruct (rpc_ s) as [| | | |ops|] eqn:Epc.
  - (* RCheck1 *)
    destruct (cavail s) as [|a] eqn:Ea; injection Hs as <-.
    + apply (recv_pc_only s _ _ _ I Rp). exact Logic.I.
    + apply (recv_pop s a _ I Rp Ea).
  - (* RReg *) injection Hs as <-. apply (recv_pc_only s _ _ _ I Rp). discriminate.
  - (* RCheck2 *)
    destruct (cavail s) as [|a] eqn:Ea; injection Hs as <-.
    + apply (recv_pc_only s _ _ _ I Rp). destruct (rreg s) eqn:Er; [exact Ea|exact (c_r4 s I Epc Er)].
    + apply (recv_pop s a _ I Rp Ea).
  - (* RSleep *)
    destruct (rwk s || sp); [|discriminate]. injection Hs as <-. apply (recv_pc_only s _ _ _ I Rp). exact Logic.I.
  - (* RGot *)
    destruct Hgot as [->|[->|[->|[->| ->]]]].
    + injection Hs as <-. apply cinv_count, (recv_pc_only s _ _ _ I Rp). rewrite Epc.
      split; [right; left; reflexivity|split; [discriminate|reflexivity]].
    + injection Hs as <-. apply (recv_pc_only s _ _ _ I Rp). rewrite Epc.
      split; [do 2 right; left; reflexivity|split; [discriminate|reflexivity]].
    + (* the message is dropped: a slot is free, and the receiver owes a notification for it *)
      injection Hs as <-. pose proof (c_hold s I) as Hh. rewrite Epc in Hh. specialize (Hh eq_refl).
      pose proof (c_cap s I) as Hcap.
      apply (recv_upd s _ _ _ _ _ _ I).
      * lia.
      * lia.
      * discriminate.
      * do 3 right. left. reflexivity.
      * intros z A B. pose proof (c_main s I z A B) as M. unfold notes in M. rewrite Rp in M. cbn in M |- *. lia.
      * split; reflexivity.
      * discriminate.
      * discriminate.
      * discriminate.
    + destruct (cnotify_one s pick) as [s1|] eqn:En; [|discriminate]. injection Hs as <-.
      destruct (cnotify_one_inv s pick s1 I En) as (I1 & M1 & E1). rewrite Epc in E1.
      exact (recv_notified s1 I1 E1 M1).
    + injection Hs as <-. apply (recv_pc_only s _ _ _ I Rp). exact Logic.I.
  - discriminate.
Qed.

Lemma c_step_inv s l s' : CInv s -> c_step chan_fixed s l = Some s' -> CInv s'.
Proof.
  intros I Hs. destruct l as [x pick sp|x|pick sp|]; cbn [c_step] in Hs.
  - destruct (nth_error (csnd s) x) as [v|] eqn:E; [|discriminate]. eapply sender_step_inv; eauto.
  - destruct (nth_error (csnd s) x) as [v|] eqn:E; [|discriminate].
    pose proof (cinv_sender s x I) as Hok. rewrite (proj1 (S_nth_error _ _ _ E)) in Hok. unfold sender_ok in Hok.
    destruct v as [pc i w h]. cbn [spc_ sin swk sh] in Hok, Hs. destruct pc; try discriminate. injection Hs as <-.
    destruct Hok as [-> ->].
    apply (sender_keeps s x _ SPoll false false I E); [exact Logic.I|discriminate|discriminate].
  - eapply recv_step_inv; eauto.
  - pose proof (rpend_spec s I) as Rp.
    destruct (rpc_ s) eqn:Epc; try discriminate. injection Hs as <-. apply (recv_pc_only s _ _ _ I Rp). exact Logic.I.
Qed.

Theorem chan_run_inv c n ls : CInv (c_run chan_fixed (c_init c n) ls).
Proof. apply c_run_invariant; [apply c_step_inv|apply cinv_init]. Qed.

Definition senders_settled (s : cstate) : Prop :=
  forall x, spc_ (S_ s x) = SIdle \/ (spc_ (S_ s x) = SSleep /\ swk (S_ s x) = false).

(* A sender sleeps only on a full mailbox: in a state in which the senders are settled and the receiver has
   no notification left to give, a sleeping sender means that every slot is occupied. *)
Theorem cinv_sender_sleeps_only_when_full s x :
  CInv s -> senders_settled s -> rpend s = false -> spc_ (S_ s x) = SSleep -> cocc s = ccap s.
Proof.
  intros I Hs Rp Hx.
  assert (Row : forall y, sh (S_ s y) = false /\ (spc_ (S_ s y) = SSleep -> sin (S_ s y) = true)).
  { intros y. pose proof (cinv_sender s y I) as Hok. unfold sender_ok in Hok.
    destruct (Hs y) as [E|[E W]]; rewrite E in Hok |- *; [split; [apply Hok|discriminate]|].
    destruct (sin (S_ s y)); [split; [apply Hok|reflexivity]|congruence]. }
  pose proof (proj2 (Row x) Hx) as Sx.
  pose proof (c_main s I x Hx Sx) as M. unfold notes in M.
  rewrite Rp, nsh_sum, (list_sum_map_zero _ _ csdef) in M by (intros y; fold (S_ s y); rewrite (proj1 (Row y)); reflexivity).
  pose proof (c_cap s I). cbn in M. lia.
Qed.

(* The receiver sleeps only on an empty mailbox (unless a sender is about to notify it). *)
Theorem cinv_receiver_sleeps_only_when_empty s :
  CInv s -> rpc_ s = RSleep -> rwk s = false ->
  (forall x, will_notify_recv (spc_ (S_ s x)) = false) -> cavail s = 0.
Proof.
  intros I Hr Hw Hn.
  destruct (rreg s) eqn:E.
  - destruct (c_r1 s I Hr E) as [Z|[x Hx]]; auto. rewrite Hn in Hx. discriminate.
  - rewrite (c_r2 s I Hr E) in Hw. discriminate.
Qed.

Theorem cinv_bounded s : CInv s -> cavail s <= cocc s /\ cocc s <= ccap s.
Proof. intros I. exact (conj (c_av s I) (c_cap s I)). Qed.

(* The "notify only when the queue was full" variant loses a wake-up.  In the model it is RNotifyMaybe in place
   of RNotifyOne (a notification under a condition left open); the run in which the condition fails is that of
   the receiver that never notifies, refuted here by a computed schedule. *)
Definition chan_no_notify : chan_prog :=
  {| cp_recv := [RCountDec; RTake; RRelease]; cp_send := [SNotifyRecv; SCountInc] |}.
Definition sched_lost : list clabel :=
  [LBegin 0; LS 0 None false; LS 0 None false;                                 (* sender 0 pushes: the queue (capacity 1) is full *)
   LBegin 1; LS 1 None false; LS 1 None false; LS 1 None false; LS 1 None false; (* sender 1: full, inserts, re-checks, sleeps *)
   LR None false; LR None false; LR None false; LR None false; LR None false].     (* the receiver pops, releases the slot, never notifies *)
Lemma chan_no_notify_refuted :
  let s := c_run chan_no_notify (c_init 1 2) sched_lost in
  spc_ (S_ s 1) = SSleep /\ sin (S_ s 1) = true /\ swk (S_ s 1) = false /\ cocc s = 0 /\ ccap s = 1 /\ rpend s = false.
Proof. vm_compute. repeat split. Qed.
