(* The pool protocol keeps its invariant along every execution; consequences. *)
Require Import NX.Base.Prelude NX.Base.ListX NX.Model.Pool NX.Proofs.PoolInv NX.Proofs.PoolSteps.

Lemma set_act_same w b : wact w = b -> set_act w b = w.
Proof. intros <-. destruct w; reflexivity. Qed.

Lemma set_all_inactive_only s j w' :
  j < length (pws s) -> (forall v, v <> j -> wact (W s v) = false) ->
  set_w (set_ws s (map (fun x => set_act x false) (pws s))) j w' = set_w s j w'.
Proof.
  intros Hj Oth. unfold set_w, set_ws. cbn. f_equal.
  apply (nth_ext _ _ wdef wdef); [rewrite !lupd_length; apply map_length|].
  intros x _. rewrite !nth_lupd, map_length. destruct (Nat.eqb x j && (j <? length (pws s))) eqn:E; [reflexivity|].
  transitivity (set_act (nth x (pws s) wdef) false); [exact (map_nth (fun y => set_act y false) (pws s) wdef x)|apply set_act_same, Oth].
  intros ->. rewrite Nat.eqb_refl in E. apply Nat.ltb_lt in Hj. rewrite Hj in E. discriminate.
Qed.

(* Every step but six (clear_bit twice, park_step, benign, flip_by_worker, unpark_by_worker) is a busy_step
   (active_step where the count moves, inv_set_inj where the injector does); may_enter of the new pc is True or
   what the branch taken has just established. *)
Lemma worker_step_inv s j w c s' :
  Inv s -> nth_error (pws s) j = Some w -> worker_step barrier_fixed s j w c = Some s' -> Inv s'.
Proof.
  intros I Hn Hs. destruct (W_nth_error _ _ _ Hn) as [HW Hj].
  pose proof (i_pc s I j) as Hpc. pose proof (i_loc s I j) as Hloc. pose proof (i_bit s I j) as Hbit.
  rewrite HW in Hpc, Hloc, Hbit. unfold local_ok in Hloc. unfold worker_step in Hs.
  destruct w as [pc a t lq sl hd cnt]. cbn [wpc wact wtok wlq wslot whand wcnt] in Hpc, Hloc, Hbit, Hs.
  destruct pc as [ops| | |ops| | | | | | |v|v].
  - (* WPre *)
    cbn in Hpc. destruct Hpc as [->| ->]; cbn in Hs; injection Hs as <-.
    + (* fold the thread's count into the shared one *)
      apply (active_step s j (pmsg s + cnt)%Z (pnet s) I Hn eq_refl eq_refl);
        [reflexivity|reflexivity|cbn; lia|exact Logic.I|exact (conj Hloc eq_refl)].
    + apply (busy_step s j I Hn eq_refl eq_refl); [reflexivity .. |exact Logic.I|exact Hloc].
  - (* WTry *)
    assert (Aw : a = true) by (apply Hbit; reflexivity). subst a. cbn [negb] in Hs.
    assert (Hlen : j < length (acts s)) by (unfold acts; rewrite map_length; auto).
    assert (Ab : nth j (acts s) false = true) by (rewrite acts_nth, HW; reflexivity).
    pose proof (only_bit_iff _ _ Hlen Ab) as Ob.
    destruct (only_bit (acts s) j) eqn:Eo; injection Hs as <-.
    + apply (busy_step s j I Hn eq_refl eq_refl); [reflexivity .. | |exact Hloc].
      intros v Hv. rewrite <- acts_nth. exact (proj1 Ob eq_refl v Hv).
    + assert (Oth : exists v, v <> j /\ wact (W s v) = true).
      { destruct (all_inactive (lupd (acts s) j false)) eqn:Ea.
        - assert (F : false = true); [apply Ob; intros v Hv|discriminate F].
          pose proof (proj1 (all_inactive_spec _) Ea v) as N. rewrite nth_lupd in N.
          destruct (Nat.eqb_spec v j); [contradiction|exact N].
        - destruct (not_all_inactive_ex _ Ea) as [v Hv]. rewrite nth_lupd in Hv. exists v.
          destruct (Nat.eqb_spec v j) as [_|Hvj]; [apply Nat.ltb_lt in Hlen; rewrite Hlen in Hv; discriminate Hv|].
          split; [exact Hvj|]. rewrite <- acts_nth. exact Hv. }
      apply (clear_bit s j I Hn eq_refl eq_refl); [reflexivity .. |left; reflexivity|exact Hloc|left; exact Oth].
  - (* WChk *)
    assert (Oth : forall v, v <> j -> wact (W s v) = false).
    { apply (i_last s I j). rewrite HW. reflexivity. }
    destruct (Nat.eqb_spec (pinj s) 0) as [Ez|Ez]; injection Hs as <-.
    + apply (busy_step s j I Hn eq_refl eq_refl); [reflexivity .. |exact (conj Oth Ez)|exact Hloc].
    + apply (busy_step s j I Hn eq_refl eq_refl); [reflexivity .. |exact Logic.I|exact Hloc].
  - (* WPost *)
    cbn in Hpc. destruct Hpc as [->|[->|[->|[->| ->]]]]; cbn in Hs.
    + (* park *)
      destruct t; [|discriminate]. injection Hs as <-. apply park_step; auto.
    + injection Hs as <-.
      apply (busy_step s j I Hn eq_refl eq_refl); [reflexivity .. |exact Logic.I|exact (proj1 Hloc)].
    + (* set_all_workers_inactive *)
      injection Hs as <-.
      assert (Oth : forall v, v <> j -> wact (W s v) = false).
      { apply (i_last s I j). rewrite HW. reflexivity. }
      assert (Z0 : pinj s = 0) by (apply (i_last0 s I j); rewrite HW; reflexivity).
      rewrite (set_all_inactive_only s j _ Hj Oth).
      apply (clear_bit s j I Hn eq_refl eq_refl);
        [reflexivity .. |do 3 right; left; reflexivity|exact Hloc|right; exact (conj Z0 eq_refl)].
    + (* unpark the main thread: still about to park, the token of the main thread is set *)
      injection Hs as <-. eapply (benign s _ j _ _ I Hn).
      1-8: reflexivity.
      * (* not a pc of the last active worker *) intros F. discriminate F.
      * intros v F. discriminate F.
      * left. reflexivity.
      * exact Hloc.
      * reflexivity.
      * left. reflexivity.
      * reflexivity.
      * (* i_mwake *) intros _. left. reflexivity.
    + injection Hs as <-.
      apply (busy_step s j I Hn eq_refl eq_refl); [reflexivity .. |exact Logic.I|exact Hloc].
  - (* WSearch *)
    destruct c; try discriminate.
    + destruct ((1 <=? k) && (k <=? pinj s)) eqn:Ek; [|discriminate]. injection Hs as <-.
      apply (busy_step (set_inj s (pinj s - k)) j (inv_set_inj s j _ I Hn eq_refl eq_refl eq_refl) Hn eq_refl eq_refl);
        [reflexivity .. |exact Logic.I|exact Logic.I].
    + destruct (Nat.eqb_spec v j) as [|Hvj]; [discriminate|].
      destruct (nth_error (pws s) v) as [x|] eqn:Ev; [|discriminate].
      destruct sl; [destruct Hloc as (_ & F & _); discriminate F|].
      destruct ((1 <=? k) && (k <=? wlq x)) eqn:Ek; [|discriminate]. injection Hs as <-.
      (* the victim only loses tasks of its local queue *)
      assert (I1 : Inv (set_w s v (set_lq x (wlq x - k)))).
      { destruct (W_nth_error _ _ _ Ev) as [HWv _]. apply (benign s _ v x (set_lq x (wlq x - k)) I Ev); rewrite <- ?HWv.
        1-8: reflexivity.
        - (* its pc stays *) intros L. split; [exact (i_last s I v L)|exact (i_last0 s I v)].
        - exact (i_wact s I v).
        - exact (i_pc s I v).
        - apply local_ok_stolen, (i_loc s I v).
        - reflexivity.
        - left. reflexivity.
        - intros T. exact T.
        - intros F. right. exact F. }
      set (s1 := set_w s v (set_lq x (wlq x - k))) in *.
      destruct (W_set_w_other s v x j _ Hn Ev Hvj (set_lq x (wlq x - k))) as [Hj1 HW1]. fold s1 in Hj1, HW1.
      assert (Hn1 : nth_error (pws s1) j = Some (W s1 j)) by apply nth_error_nth', Hj1. rewrite HW1 in Hn1.
      apply (busy_step s1 j I1 Hn1 eq_refl eq_refl); [reflexivity .. |exact Logic.I|exact (proj2 (proj2 Hloc))].
    + injection Hs as <-.
      apply (busy_step s j I Hn eq_refl eq_refl); [reflexivity .. |exact Logic.I|exact Hloc].
  - (* WExt *)
    injection Hs as <-.
    apply (busy_step s j I Hn eq_refl eq_refl); [reflexivity .. |exact Logic.I|reflexivity].
  - (* WRun *)
    destruct sl; [|destruct lq as [|q]]; injection Hs as <-.
    + apply inv_add_ran, (busy_step s j I Hn eq_refl eq_refl); [reflexivity .. |exact Logic.I|exact Hloc].
    + apply (busy_step s j I Hn eq_refl eq_refl); [reflexivity .. |exact Logic.I|exact (conj eq_refl (conj eq_refl Hloc))].
    + apply inv_add_ran, (busy_step s j I Hn eq_refl eq_refl); [reflexivity .. |exact Logic.I|exact Hloc].
  - (* WTask *)
    destruct c; try discriminate.
    + (* the task sends or receives *)
      injection Hs as <-.
      apply (active_step s j (pmsg s) (pnet s + d)%Z I Hn eq_refl eq_refl);
        [reflexivity|reflexivity|cbn; lia|exact Logic.I|exact Hloc].
    + destruct sl; injection Hs as <-.
      * apply inv_add_sched, (busy_step s j I Hn eq_refl eq_refl); [reflexivity .. |exact Logic.I|exact Logic.I].
      * apply inv_add_sched, (busy_step s j I Hn eq_refl eq_refl); [reflexivity .. |exact Logic.I|exact Hloc].
    + injection Hs as <-.
      apply (busy_step s j I Hn eq_refl eq_refl); [reflexivity .. |exact Logic.I|exact Hloc].
  - (* WSched1 *)
    destruct c; try discriminate.
    + destruct hd as [|h]; [discriminate|]. injection Hs as <-.
      apply (busy_step s j I Hn eq_refl eq_refl); [reflexivity .. |exact Logic.I|exact Logic.I].
    + destruct (k <=? lq) eqn:Ek; [|discriminate]. injection Hs as <-.
      apply (busy_step s j I Hn eq_refl eq_refl); [reflexivity .. |exact Logic.I|exact Logic.I].
    + destruct ((1 <=? k) && (k <=? hd)) eqn:Ek; [|discriminate]. injection Hs as <-.
      apply (busy_step (set_inj s (pinj s + k)) j (inv_set_inj s j _ I Hn eq_refl eq_refl eq_refl) Hn eq_refl eq_refl);
        [reflexivity .. |exact Logic.I|exact Logic.I].
    + destruct hd as [|h]; [|discriminate]. injection Hs as <-.
      apply (busy_step s j I Hn eq_refl eq_refl); [reflexivity .. |exact Logic.I|reflexivity].
  - (* WSched2 *)
    destruct c; try discriminate.
    + destruct (Nat.ltb_spec v (length (pws s))) as [Hv|Hv]; [|discriminate]. injection Hs as <-.
      apply (busy_step s j I Hn eq_refl eq_refl); [reflexivity .. |exact Hv|exact Hloc].
    + injection Hs as <-.
      apply (busy_step s j I Hn eq_refl eq_refl); [reflexivity .. |exact Logic.I|exact Hloc].
  - (* WAct *)
    assert (Aw : a = true) by (apply Hbit; reflexivity).
    destruct (nth_error (pws s) v) as [x|] eqn:Ev; [|discriminate].
    destruct (wact x) eqn:Eax.
    + injection Hs as <-.
      apply (busy_step s j I Hn eq_refl eq_refl); [reflexivity .. |exact Logic.I|exact Hloc].
    + destruct (Nat.eqb_spec v j) as [->|Hvj]; [rewrite Hn in Ev; injection Ev as <-; cbn in Eax; congruence|]. injection Hs as <-.
      apply flip_by_worker; auto.
  - (* WUnpark *)
    destruct (nth_error (pws s) v) as [x|] eqn:Ev; [|discriminate].
    destruct (unpark_owed s j v I) as (_ & Pv & _); [rewrite HW; reflexivity|].
    destruct (Nat.eqb_spec v j) as [->|Hvj]; [rewrite HW in Pv; discriminate|]. injection Hs as <-.
    apply unpark_by_worker; auto.
Qed.

Lemma quiet_msg s : Inv s -> (forall v, wact (W s v) = false) ->
  pmsg s = pnet s /\ (forall j, no_work (W s j)) /\
  (pmain s <> MIdle -> (forall a, pmain s <> MAct a) -> pinj s = 0).
Proof.
  intros I H.
  assert (L : forall v, no_work (W s v) /\ wcnt (W s v) = 0%Z).
  { intros v. apply parkish_local; [apply (inactive_parkish s v I (H v))|apply (i_loc s I)]. }
  refine (conj _ (conj _ _)).
  - pose proof (i_sum s I) as S. rewrite sumc_zero in S; [lia|]. intros j. apply L.
  - intros j. apply L.
  - intros N1 N2. destruct (pinj s) as [|n] eqn:E; auto.
    destruct (i_inj s I) as [[v Hv]|F]; [lia|rewrite H in Hv; discriminate|].
    destruct (pmain s) as [|a|v| | |] eqn:Em; try discriminate F; [contradiction|exfalso; eapply N2; eauto|].
    destruct (munpark_owed s v I Em) as (A & _). rewrite H in A. discriminate.
Qed.

Lemma inj_active s : Inv s -> 0 < pinj s -> main_feeds (pmain s) = false -> exists v, wact (W s v) = true.
Proof. intros I H F. destruct (i_inj s I H) as [A|A]; [exact A|congruence]. Qed.

Lemma main_step_inv s s' : Inv s -> main_step s = Some s' -> Inv s'.
Proof.
  intros I Hs. unfold main_step in Hs.
  destruct (pmain s) as [|a|v| | |] eqn:Em.
  - discriminate.
  - (* activate_worker: the pool is idle, worker 0 is picked *)
    assert (Q : main_quiet (pmain s) = true) by (rewrite Em; reflexivity).
    pose proof (i_main s I Q) as AllI.
    pose proof (i_snap s I a Em) as ->.
    assert (F0 : first_idle (acts s) = Some 0).
    { pose proof (i_len s I) as Hl. pose proof (acts_nth s 0) as A0. rewrite AllI in A0.
      unfold acts in *. destruct (pws s) as [|y l]; [cbn in Hl; lia|]. cbn in A0 |- *. rewrite A0. reflexivity. }
    rewrite F0 in Hs.
    destruct (nth_error (pws s) 0) as [x|] eqn:E0; [|discriminate].
    assert (Ax : wact x = false) by (rewrite <- (proj1 (W_nth_error _ _ _ E0)); apply AllI).
    rewrite Ax in Hs. injection Hs as <-. eapply flip_by_main; eauto.
  - (* unpark *)
    destruct (nth_error (pws s) v) as [x|] eqn:Ev; [|discriminate]. injection Hs as <-.
    apply unpark_by_main; auto.
  - (* pool_is_idle? *)
    destruct (all_inactive (acts s)) eqn:Ea; injection Hs as <-.
    + pose proof (proj1 (all_inactive_acts s) Ea) as Ea'.
      apply (main_frame s _ I).
      1-4: reflexivity.
      * intros v. rewrite Em. reflexivity.
      * left. reflexivity.
      * intros _. exact Ea'.
      * discriminate.
      * (* i_inj: the injector is empty *)
        intros H. destruct (inj_active s I H) as [v Hv]; [rewrite Em; reflexivity|].
        rewrite Ea' in Hv. discriminate Hv.
      * exact (i_reads s I).
      * discriminate.
    + apply (main_frame s _ I).
      1-4: reflexivity.
      * intros v. rewrite Em. reflexivity.
      * left. reflexivity.
      * discriminate.
      * discriminate.
      * (* i_inj *) intros H. left. apply (inj_active s I H). rewrite Em. reflexivity.
      * exact (i_reads s I).
      * (* i_mwake: some worker is active *)
        intros _ A. rewrite (proj2 (all_inactive_acts s) A) in Ea. discriminate Ea.
  - (* park *)
    destruct (pmtok s); [|discriminate]. injection Hs as <-.
    apply (main_frame s _ I).
    1-4: reflexivity.
    + intros v. rewrite Em. reflexivity.
    + left. reflexivity.
    + discriminate.
    + discriminate.
    + (* i_inj *) intros H. left. apply (inj_active s I H). rewrite Em. reflexivity.
    + exact (i_reads s I).
    + discriminate.
  - (* msg_count.load() *)
    injection Hs as <-.
    assert (Q : main_quiet (pmain s) = true) by (rewrite Em; reflexivity).
    pose proof (i_main s I Q) as AllI.
    destruct (quiet_msg s I AllI) as (Emsg & _ & _).
    apply (main_frame s _ I).
    1-4: reflexivity.
    + intros v. rewrite Em. reflexivity.
    + left. reflexivity.
    + intros _. exact AllI.
    + discriminate.
    + intros _. right. reflexivity.
    + (* i_reads: the pool is idle, the count is exact *)
      intros m n [F|F]; [injection F as <- <-; exact Emsg|apply (i_reads s I m n F)].
    + discriminate.
Qed.

Lemma p_step_inv s l s' : Inv s -> p_step barrier_fixed s l = Some s' -> Inv s'.
Proof.
  intros I Hs. destruct l as [j c| | |]; cbn in Hs.
  - destruct (nth_error (pws s) j) as [w|] eqn:E; [|discriminate]. eapply worker_step_inv; eauto.
  - eapply main_step_inv; eauto.
  - destruct (pmain s) eqn:Em; try discriminate. injection Hs as <-.
    assert (Q : main_quiet (pmain s) = true) by (rewrite Em; reflexivity).
    apply (main_frame s _ I).
    1-5: reflexivity.
    + right. exact Q.
    + intros _. exact (i_main s I Q).
    + cbn. rewrite Em. discriminate.
    + intros _. right. cbn. rewrite Em. reflexivity.
    + exact (i_reads s I).
    + cbn. rewrite Em. discriminate.
  - destruct (pmain s) eqn:Em; try discriminate. injection Hs as <-.
    assert (Q : main_quiet (pmain s) = true) by (rewrite Em; reflexivity).
    apply (main_frame s _ I).
    1-4: reflexivity.
    + intros v. rewrite Em. reflexivity.
    + left. reflexivity.
    + intros _. exact (i_main s I Q).
    + intros a F. injection F as <-. reflexivity.
    + intros _. right. reflexivity.
    + exact (i_reads s I).
    + discriminate.
Qed.

Theorem pool_run_inv n ls : 1 <= n -> Inv (p_run barrier_fixed (p_init n) ls).
Proof. intros Hn. apply p_run_invariant; [apply p_step_inv|apply inv_init, Hn]. Qed.

(* during a run, an idle pool (no bit set in active_workers) has nothing left to do and an exact count *)
Theorem inv_idle_exact s : Inv s ->
  (forall v, wact (W s v) = false) -> pmain s <> MIdle -> (forall a, pmain s <> MAct a) ->
  pmsg s = pnet s /\ quiescent s.
Proof.
  intros I H N1 N2. destruct (quiet_msg s I H) as (A & B & C). refine (conj A (conj _ B)). apply C; auto.
Qed.

Theorem inv_read_exact s : Inv s -> pmain s = MRead -> pmsg s = pnet s /\ quiescent s.
Proof.
  intros I Em. apply (inv_idle_exact s I); [|rewrite Em; discriminate|rewrite Em; discriminate].
  apply (i_main s I). rewrite Em. reflexivity.
Qed.

(* a worker that is doing anything has its bit set: work is never held by an "inactive" worker *)
Theorem inv_work_only_on_active s j : Inv s ->
  wact (W s j) = false -> no_work (W s j) /\ wcnt (W s j) = 0%Z.
Proof. intros I H. apply parkish_local; [apply (inactive_parkish s j I H)|apply (i_loc s I)]. Qed.

(* the pinned tree: the count read by run() can be wrong *)
Definition w0 c := LW 0 c.
Definition w1 c := LW 1 c.
Definition sched_common : list plabel :=
  [LSpawn; LRunCall; LM; LM;
   w0 PNone; w0 PNone; w0 (PPop 1); w0 PNone; w0 PNone;
   w0 PWake; w0 PWake; w0 PPushLocal; w0 PNext; w0 (PActivate 1); w0 PNone; w0 PNone; w0 (PCnt 1); w0 PDone;
   w1 PNone; w1 PNone; w1 (PSteal 0 1); w1 PNone; w1 (PCnt (-1)); w1 PDone; w1 PNone; w1 PGiveUp;
   w0 PNone; w0 PDone; w0 PNone; w0 PGiveUp;
   LM].
(* worker 0 clears its bit; worker 1, now the last one, declares the pool idle and folds its count;
   the main thread wakes up and reads the count before worker 0 has folded its own *)
Definition sched_pinned : list plabel :=
  sched_common ++
  [w0 PNone; w0 PNone;
   w1 PNone; w1 PNone; w1 PNone; w1 PNone; w1 PNone; w1 PNone;
   LM; LM].
Definition sched_fixed : list plabel :=
  sched_common ++
  [w0 PNone; w0 PNone; w0 PNone;
   w1 PNone; w1 PNone; w1 PNone; w1 PNone; w1 PNone; w1 PNone;
   LM; LM].

Lemma pool_pinned_refuted :
  let s := p_run barrier_pinned (p_init 2) sched_pinned in
  pmain s = MRead /\ pmsg s = (-1)%Z /\ pnet s = 0%Z /\ quiescent s.
Proof.
  vm_compute. refine (conj eq_refl (conj eq_refl (conj eq_refl (conj eq_refl _)))).
  intros [|[|[|j]]]; repeat split; destruct j; reflexivity.
Qed.

Lemma pool_fixed_same_schedule :
  let s := p_run barrier_fixed (p_init 2) sched_fixed in
  pmain s = MRead /\ pmsg s = 0%Z /\ pnet s = 0%Z.
Proof. vm_compute. auto. Qed.

Lemma active_in_range s v : wact (W s v) = true -> v < length (pws s).
Proof. intros H. apply W_in_range. intros E. rewrite E in H. discriminate. Qed.

Lemma W_nth_error_inv s v : v < length (pws s) -> nth_error (pws s) v = Some (W s v).
Proof. intros H. unfold W. apply nth_error_nth'. exact H. Qed.

Definition worker_enabled (s : pstate) (j : nat) : Prop :=
  exists c s', p_step barrier_fixed s (LW j c) = Some s'.

Lemma unparked_enabled s j :
  Inv s -> j < length (pws s) -> ~ (wpc (W s j) = WPost [BPark] /\ wtok (W s j) = false) -> worker_enabled s j.
Proof.
  intros I Hj P. unfold worker_enabled. cbn [p_step]. rewrite (W_nth_error_inv s j Hj).
  pose proof (i_pc s I j) as Hpc. unfold worker_step.
  destruct (wpc (W s j)) as [ops| | |ops| | | | | | |v|v] eqn:Epc.
  - cbn in Hpc. destruct Hpc as [->| ->]; exists PNone; cbn; eauto.
  - exists PNone. destruct (negb (wact (W s j))); [eauto|]. destruct (only_bit (acts s) j); eauto.
  - exists PNone. destruct (Nat.eqb (pinj s) 0); eauto.
  - cbn in Hpc. destruct Hpc as [->|[->|[->|[->| ->]]]]; exists PNone; cbn; eauto.
    destruct (wtok (W s j)); [eauto|]. destruct P; auto.
  - exists PGiveUp. eauto.
  - exists PNone. eauto.
  - exists PNone. destruct (wslot (W s j)); [eauto|]. destruct (wlq (W s j)); eauto.
  - exists PDone. eauto.
  - destruct (whand (W s j)) eqn:Eh; [exists PNext|exists PPushLocal]; eauto.
  - exists PSkip. eauto.
  - exists PNone. pose proof (i_wact s I j v Epc) as Hv. rewrite (W_nth_error_inv s v Hv).
    destruct (wact (W s v)); [eauto|]. destruct (Nat.eqb v j); eauto.
  - exists PNone. destruct (unpark_owed s j v I Epc) as (A & _). pose proof (active_in_range s v A) as Hv.
    rewrite (W_nth_error_inv s v Hv). destruct (Nat.eqb v j); eauto.
Qed.

(* no global deadlock: while Executor::run is blocked in park(), some worker can move *)
Theorem inv_no_global_deadlock s : Inv s ->
  pmain s = MPark -> pmtok s = false -> exists j, worker_enabled s j.
Proof.
  intros I Em Et.
  destruct (all_inactive (acts s)) eqn:E.
  - (* the pool is idle: the worker that cleared the last bit is about to unpark the main thread *)
    destruct (i_mwake s I Em (proj1 (all_inactive_acts s) E)) as [T|[x Hx]]; [congruence|].
    exists x. apply unparked_enabled; auto; [|rewrite Hx; intros [F _]; discriminate F].
    apply W_in_range. intros F. rewrite F in Hx. discriminate.
  - (* some worker v is active: it runs, or its wake-up is on its way *)
    destruct (not_all_inactive_ex _ E) as [v Hv]. rewrite acts_nth in Hv.
    pose proof (active_in_range s v Hv) as Lv.
    destruct (parkish (wpc (W s v))) eqn:P; [|exists v; apply unparked_enabled; auto; intros [F _]; rewrite F in P; discriminate].
    destruct (wake_pending s v I Hv P) as [T|[[x Hx]|M]]; [| |congruence].
    + exists v. apply unparked_enabled; auto. intros [_ F]. congruence.
    + exists x. apply unparked_enabled; auto; [|rewrite Hx; intros [F _]; discriminate F].
      apply W_in_range. intros F. rewrite F in Hx. discriminate.
Qed.
