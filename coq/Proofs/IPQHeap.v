(* The heap/slab invariants of util/indexed_priority_queue.rs and their preservation by
   sift_up / sift_down (Model/IPQ.v). *)
Require Import NX.Base.Prelude NX.Base.ListX NX.Model.IPQ NX.Proofs.IPQOrder NX.Proofs.IPQSift.

Section Heap.
  Variable V : Type.
  Notation node := (node V).
  Notation strip := (strip V).

  Definition HO (hp : list hitem) : Prop :=
    forall i x p, 0 < i -> nth_error hp i = Some x -> nth_error hp (parent i) = Some p -> ule p x.

  (* cross-indexing of heap and slab: every heap item points to a heap node that points back ([points]), and
     every heap node of the slab belongs to a heap item ([owned]); the latter speaks only of what the sift
     loops do not change. *)
  Definition points (hp : list hitem) (sl : list node) : Prop :=
    forall i it, nth_error hp i = Some it -> exists v, nth_error sl (hslab it) = Some (HeapNode v i).

  Definition owned (hp : list hitem) (ss : list (option nat + V)) : Prop :=
    forall j v, nth_error ss j = Some (inr v) -> exists it, In it hp /\ hslab it = j.

  Lemma points_inj hp sl i j a b :
    points hp sl -> nth_error hp i = Some a -> nth_error hp j = Some b -> hslab a = hslab b -> i = j.
  Proof.
    intros W Hi Hj E. destruct (W i a Hi) as (v & Hv). destruct (W j b Hj) as (w & Hw).
    rewrite E, Hw in Hv. congruence.
  Qed.

  (* The middle of a sift: position c of the heap is a hole (its content is stale) and [item] is the entry to
     be placed.  Invariant is the heap with the hole filled: its items point to their slab nodes and it holds
     the intended content L. *)
  Record hole (L : list hitem) (item : hitem) (hp : list hitem) (sl : list node) (c : nat) : Prop := {
    hi_c : c < length hp;
    hi_pts : exists v h, nth_error sl (hslab item) = Some (HeapNode v h) /\
                         points (lupd hp c item) (lupd sl (hslab item) (HeapNode v c));
    hi_content : forall it, In it L <-> In it (lupd hp c item)
  }.

  Lemma hole_fill L item hp sl c :
    hole L item hp sl c -> HO (lupd hp c item) ->
    exists hp' sl',
      bind (upd hp c item) (fun hp' => bind (set_hidx sl (hslab item) c) (fun sl' => Some (hp', sl'))) = Some (hp', sl') /\
      points hp' sl' /\ (forall it, In it L <-> In it hp') /\ HO hp' /\ length hp' = length hp /\ map strip sl' = map strip sl.
  Proof.
    intros [Hc (v & h & Hn & W) Hcont] Hho.
    rewrite (upd_some _ _ _ Hc), (set_hidx_some V _ _ _ _ c Hn), !bind_some. eexists _, _. split; [reflexivity|].
    rewrite lupd_length, (strip_set V _ _ _ _ c Hn). repeat (split; [assumption|]). split; reflexivity.
  Qed.

  Lemma hole_move L item hp sl c c' p :
    hole L item hp sl c -> c' <> c -> nth_error hp c' = Some p ->
    exists sl', upd hp c p = Some (lupd hp c p) /\ set_hidx sl (hslab p) c = Some sl' /\
                hole L item (lupd hp c p) sl' c' /\ map strip sl' = map strip sl.
  Proof.
    intros [Hc (v & h0 & Hitem & W) Hcont] Hne Hp.
    pose proof (nth_error_some_lt _ _ _ Hp) as Hc'. pose proof (nth_error_some_lt _ _ _ Hitem) as Hbi.
    assert (Hitc : nth_error (lupd hp c item) c = Some item) by (apply nth_error_lupd_eq; lia).
    assert (Hpc' : nth_error (lupd hp c item) c' = Some p) by (rewrite nth_error_lupd_ne by auto; exact Hp).
    destruct (W c' p Hpc') as (vp & Hvp).
    assert (Hpi : hslab p <> hslab item).
    { intros E. rewrite E, nth_error_lupd_eq in Hvp by exact Hbi. congruence. }
    rewrite nth_error_lupd_ne in Hvp by auto. pose proof (nth_error_some_lt _ _ _ Hvp) as Hbp.
    exists (lupd sl (hslab p) (HeapNode vp c)).
    split; [apply upd_some, Hc|]. split; [eapply set_hidx_some, Hvp|]. split; [|eapply strip_set, Hvp].
    constructor.
    - rewrite lupd_length. exact Hc'.
    - exists v, h0. split; [rewrite nth_error_lupd_ne by auto; exact Hitem|].
      intros i x Hx. apply nth_error_lupd_inv in Hx. destruct Hx as [[-> ->]|[Hi Hx]].
      { exists v. apply nth_error_lupd_eq. rewrite lupd_length. exact Hbi. }
      apply nth_error_lupd_inv in Hx. destruct Hx as [[-> ->]|[Hi2 Hx]].
      { exists vp. rewrite nth_error_lupd_ne by auto. apply nth_error_lupd_eq. exact Hbp. }
      destruct (W i x) as (w & Hw); [rewrite nth_error_lupd_ne by auto; exact Hx|].
      exists w. apply nth_error_lupd_inv in Hw. destruct Hw as [[_ Hw]|[Hn Hw]]; [congruence|].
      rewrite nth_error_lupd_ne by auto. rewrite nth_error_lupd_ne; [exact Hw|].
      intros E. rewrite E in Hvp. congruence.
    - (* the two heaps differ by the exchange of positions c and c' *)
      intros x. rewrite Hcont, !In_nth_iff. split; intros (i & Hi); apply nth_error_lupd_inv in Hi.
      + destruct Hi as [[-> ->]|[Hi Hx]]; [exists c'; apply nth_error_lupd_eq; rewrite lupd_length; exact Hc'|].
        destruct (Nat.eq_dec i c') as [->|Hi'].
        * exists c. rewrite nth_error_lupd_ne by auto. rewrite Hp in Hx. injection Hx as <-.
          apply nth_error_lupd_eq. lia.
        * exists i. rewrite !nth_error_lupd_ne by auto. exact Hx.
      + destruct Hi as [[-> ->]|[Hi Hx]]; [exists c; exact Hitc|].
        apply nth_error_lupd_inv in Hx. destruct Hx as [[-> ->]|[Hi2 Hx]]; [exists c'; exact Hpc'|].
        exists i. rewrite nth_error_lupd_ne by auto. exact Hx.
  Qed.

  Lemma HO_snoc hp y :
    HO hp -> (forall p, nth_error hp (parent (length hp)) = Some p -> ule p y) -> HO (hp ++ [y]).
  Proof.
    intros H Hy i x p Hi Hx Hp. pose proof (parent_lt i Hi).
    apply nth_error_snoc_inv in Hx. apply nth_error_snoc_inv in Hp.
    destruct Hx as [Hx|[-> ->]], Hp as [Hp|[E _]];
      [exact (H i x p Hi Hx Hp)|apply nth_error_some_lt in Hx; lia|exact (Hy p Hp)|lia].
  Qed.

  Lemma HO_at hp c y :
    HO (lupd hp c y) -> c < length hp ->
    (forall p, 0 < c -> nth_error hp (parent c) = Some p -> ule p y) /\
    (forall i x, 0 < i -> parent i = c -> nth_error hp i = Some x -> ule y x).
  Proof.
    intros H Hc. split.
    - intros p Hc0 Hp. pose proof (parent_lt c Hc0).
      apply (H c y p Hc0); [apply nth_error_lupd_eq; exact Hc|rewrite nth_error_lupd_ne by lia; exact Hp].
    - intros i x Hi Hp Hx. pose proof (parent_lt i Hi).
      apply (H i x y Hi); [rewrite nth_error_lupd_ne by lia; exact Hx|rewrite Hp; apply nth_error_lupd_eq; exact Hc].
  Qed.

  Lemma HO_lupd hp c y z :
    HO (lupd hp c y) ->
    (forall p, 0 < c -> nth_error hp (parent c) = Some p -> ule p z) ->
    (forall i x, 0 < i -> parent i = c -> nth_error hp i = Some x -> ule z x) ->
    HO (lupd hp c z).
  Proof.
    intros H Hin Hout i x p Hi Hx Hp. pose proof (parent_lt i Hi).
    apply nth_error_lupd_inv in Hx. apply nth_error_lupd_inv in Hp.
    destruct Hx as [[-> ->]|[Hic Hx]], Hp as [[Hpc ->]|[Hpc Hp]]; try lia; eauto.
    apply (H i x p Hi); rewrite nth_error_lupd_ne by auto; assumption.
  Qed.

  (* The order invariants of the loops.  Writing [item] into the hole lowers (sift_up) or raises
     (sift_down) the key of a heap at c: the heap is in order with some y in the hole that is not
     below (not above) [item].  After a step y is the stale content of the hole. *)
  Definition SU (item : hitem) (hp : list hitem) (c : nat) : Prop :=
    exists y, ule item y /\ HO (lupd hp c y).

  Definition SD (item : hitem) (hp : list hitem) (c : nat) : Prop :=
    exists y, ule y item /\ HO (lupd hp c y).

  Lemma SU_fill item hp c :
    SU item hp c -> c < length hp ->
    (forall p, 0 < c -> nth_error hp (parent c) = Some p -> ule p item) -> HO (lupd hp c item).
  Proof.
    intros (y & Hy & H) Hc Hin. destruct (HO_at _ _ _ H Hc) as [_ Hch].
    apply HO_lupd with y; [exact H|exact Hin|].
    intros i x Hi Hp Hx. apply ule_trans with y; [exact Hy|exact (Hch i x Hi Hp Hx)].
  Qed.

  Lemma SD_fill item hp c :
    SD item hp c -> c < length hp ->
    (forall i x, 0 < i -> parent i = c -> nth_error hp i = Some x -> ule item x) -> HO (lupd hp c item).
  Proof.
    intros (y & Hy & H) Hc Hout. destruct (HO_at _ _ _ H Hc) as [Hpar _].
    apply HO_lupd with y; [exact H| |exact Hout].
    intros p Hc0 Hp. apply ule_trans with y; [exact (Hpar p Hc0 Hp)|exact Hy].
  Qed.

  Lemma SU_step item hp c p :
    SU item hp c -> c < length hp -> 0 < c -> nth_error hp (parent c) = Some p -> ult item p ->
    SU item (lupd hp c p) (parent c).
  Proof.
    intros (y & Hy & H) Hc Hc0 Hp Hlt. destruct (HO_at _ _ _ H Hc) as [Hpar Hch]. pose proof (parent_lt c Hc0).
    exists p. split; [apply ult_ule; exact Hlt|].
    rewrite lupd_same by (rewrite nth_error_lupd_ne by lia; exact Hp).
    apply HO_lupd with y; [exact H| |].
    - intros p' _ Hp'. replace p' with p by congruence. apply ule_refl.
    - intros i x Hi Hpi Hx. apply ule_trans with y; [exact (Hpar p Hc0 Hp)|exact (Hch i x Hi Hpi Hx)].
  Qed.

  Lemma sel_child_spec hp c c0 :
    nth_error hp (2 * c + 1) = Some c0 ->
    exists ch, nth_error hp (sel_child hp c c0) = Some ch /\
               forall i x, 0 < i -> parent i = c -> nth_error hp i = Some x -> ule ch x.
  Proof.
    intros H0. unfold sel_child.
    assert (Hkids : forall i x, 0 < i -> parent i = c -> nth_error hp i = Some x ->
                                x = c0 \/ nth_error hp (2 * c + 1 + 1) = Some x).
    { intros i x Hi Hp Hx. apply parent_child in Hp; [|exact Hi].
      destruct Hp as [->| ->]; [left; congruence|right]. rewrite <- Hx. f_equal. lia. }
    destruct (nth_error hp (2 * c + 1 + 1)) as [c1|] eqn:E1; [destruct (ukey_ltb c1 c0) eqn:El|].
    - exists c1. split; [exact E1|]. intros i x Hi Hp Hx.
      destruct (Hkids i x Hi Hp Hx) as [->|E]; [apply ult_ule; exact El|injection E as <-; apply ule_refl].
    - exists c0. split; [exact H0|]. intros i x Hi Hp Hx.
      destruct (Hkids i x Hi Hp Hx) as [->|E]; [apply ule_refl|injection E as <-; apply ukey_ltb_false; exact El].
    - exists c0. split; [exact H0|]. intros i x Hi Hp Hx.
      destruct (Hkids i x Hi Hp Hx) as [->|E]; [apply ule_refl|discriminate].
  Qed.

  Lemma SD_step item hp c c' ch :
    SD item hp c -> c < length hp -> 0 < c' -> parent c' = c -> nth_error hp c' = Some ch ->
    (forall i x, 0 < i -> parent i = c -> nth_error hp i = Some x -> ule ch x) ->
    ult ch item ->
    SD item (lupd hp c ch) c'.
  Proof.
    intros (y & Hy & H) Hc Hc'0 Hc'p Ech Hmin Hlt. destruct (HO_at _ _ _ H Hc) as [Hpar Hch]. pose proof (parent_lt c' Hc'0).
    exists ch. split; [apply ult_ule; exact Hlt|].
    rewrite lupd_same by (rewrite nth_error_lupd_ne by lia; exact Ech).
    apply HO_lupd with y; [exact H| |exact Hmin].
    intros p Hc0 Hp. apply ule_trans with y; [exact (Hpar p Hc0 Hp)|exact (Hch c' ch Hc'0 Hc'p Ech)].
  Qed.

  Theorem sift_up_correct L item fuel : forall hp sl c,
    hole L item hp sl c -> SU item hp c -> c < fuel ->
    exists hp' sl', sift_up fuel hp sl item c = Some (hp', sl') /\ points hp' sl' /\ (forall it, In it L <-> In it hp') /\ HO hp' /\
                    length hp' = length hp /\ map strip sl' = map strip sl.
  Proof.
    induction fuel as [|fuel IH]; intros hp sl c Hh Hs Hf; [lia|]. pose proof (hi_c _ _ _ _ _ Hh) as Hc.
    cbn [sift_up]. destruct (Nat.eqb_spec c 0) as [Hc0|Hc0].
    { apply (hole_fill _ _ _ _ _ Hh), SU_fill; [exact Hs|exact Hc|]. intros; lia. }
    change (Nat.div (c - 1) 2) with (parent c). pose proof (parent_lt c ltac:(lia)) as Hpl.
    destruct (nth_error hp (parent c)) as [p|] eqn:Ep; [|apply nth_error_None in Ep; lia]. rewrite bind_some.
    destruct (ukey_ltb item p) eqn:El; cbn [negb].
    - destruct (hole_move _ _ _ _ _ (parent c) p Hh) as (sl' & E1 & E2 & Hh' & Es'); [lia|exact Ep|].
      rewrite E1, E2, !bind_some.
      destruct (IH (lupd hp c p) sl' (parent c) Hh') as (hp'' & sl'' & E & D);
        [apply SU_step; auto; lia|lia|].
      rewrite lupd_length, Es' in D. exists hp'', sl''. auto.
    - apply (hole_fill _ _ _ _ _ Hh), SU_fill; [exact Hs|exact Hc|].
      intros p' _ Hp'. apply ukey_ltb_false. congruence.
  Qed.

  Theorem sift_down_correct L item fuel : forall hp sl c,
    hole L item hp sl c -> SD item hp c -> length hp - c < fuel ->
    exists hp' sl', sift_down fuel hp sl item c = Some (hp', sl') /\ points hp' sl' /\ (forall it, In it L <-> In it hp') /\ HO hp' /\
                    length hp' = length hp /\ map strip sl' = map strip sl.
  Proof.
    induction fuel as [|fuel IH]; intros hp sl c Hh Hs Hf; [lia|]. pose proof (hi_c _ _ _ _ _ Hh) as Hc.
    cbn [sift_down]. destruct (Nat.ltb_spec (2 * c + 1) (length hp)) as [Hch|Hch].
    2:{ apply (hole_fill _ _ _ _ _ Hh), SD_fill; [exact Hs|exact Hc|].
        intros i x Hi Hp Hx. apply nth_error_some_lt in Hx. apply parent_child in Hp; [lia|exact Hi]. }
    destruct (nth_error hp (2 * c + 1)) as [c0|] eqn:E0; [|apply nth_error_None in E0; lia]. rewrite bind_some.
    fold (sel_child hp c c0). destruct (sel_child_spec _ _ _ E0) as (ch & Ech & Hmin). rewrite Ech, bind_some.
    pose proof (sel_child_cases hp c c0) as Hcs.
    destruct (ule_total item ch) as [Hle|Hlt].
    - unfold ule in Hle. rewrite Hle. apply (hole_fill _ _ _ _ _ Hh), SD_fill; [exact Hs|exact Hc|].
      intros i x Hi Hp Hx. apply ule_trans with ch; [exact Hle|exact (Hmin i x Hi Hp Hx)].
    - replace (ukey_leb item ch) with false by (unfold ukey_leb; rewrite Hlt; reflexivity).
      destruct (hole_move _ _ _ _ _ (sel_child hp c c0) ch Hh) as (sl' & E1 & E2 & Hh' & Es'); [lia|exact Ech|].
      rewrite E1, E2, !bind_some.
      destruct (IH (lupd hp c ch) sl' (sel_child hp c c0) Hh') as (hp'' & sl'' & E & D);
        [apply SD_step; auto; [lia|apply parent_child; lia]|rewrite lupd_length; lia|].
      rewrite lupd_length, Es' in D. exists hp'', sl''. auto.
  Qed.
End Heap.
