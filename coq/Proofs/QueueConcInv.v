(* Invariant of the concurrent queue model (Model/QueueConc.v), the window of live tickets and the
   effect of a write to one slot (ring arithmetic: Proofs/QueueProofs.v). *)
Require Import NX.Base.Prelude NX.Base.ListX NX.Proofs.QueueProofs NX.Model.QueueConc.

Section Inv.
  Variable V : Type.
  Notation cstate := (cstate V).
  Notation prod := (prod V).

  (* number of tickets whose slot has been handed back (the drop of the borrow completed) *)
  Definition rel (s : cstate) : nat := deq s - (if Nat.leb 3 (cpc (con s)) then 1 else 0).
  (* number of values the consumer has taken out of the cells *)
  Definition taken (s : cstate) : nat := deq s - (if Nat.eqb (cpc (con s)) 3 then 1 else 0).

  Definition in_flight (p : prod) : Prop := ppc p = 3 \/ ppc p = 4.

  Fixpoint sdesc (l : list nat) : Prop :=
    match l with
    | [] => True
    | x :: r => (match r with [] => True | y :: _ => y < x end) /\ sdesc r
    end.

  (* what a published ticket m (stamp 2m+1) holds *)
  Definition published_ok (s : cstate) (m : nat) : Prop :=
    (deq s <= m -> exists v, nth_error (log s) m = Some v /\ snd (slot_at s m) = CPop v) /\
    (m < deq s -> (cpc (con s) = 3 -> exists v, nth_error (log s) m = Some v /\ snd (slot_at s m) = CPop v) /\
                  (cpc (con s) = 4 -> snd (slot_at s m) = CNone) /\
                  (cpc (con s) = 5 -> snd (slot_at s m) = CVac)).

  Definition slot_ok (s : cstate) (m : nat) : Prop :=
    (m < enq s -> (fst (slot_at s m) = 2 * m + 1 /\ published_ok s m) \/ fst (slot_at s m) = 2 * m) /\
    (enq s <= m -> slot_at s m = (2 * m, CVac)).

  Definition prod_ok (s : cstate) (p : prod) : Prop :=
    ppc p <= 4 /\
    (pvals p = [] -> ppc p = 0) /\
    (1 <= ppc p -> ppos p <= enq s) /\
    (ppc p = 2 -> pclo p = false /\ pst p <= fst (slot_at s (ppos p))) /\
    (in_flight p ->
       rel s <= ppos p < enq s /\ deq s <= ppos p /\ pst p = 2 * ppos p /\ fst (slot_at s (ppos p)) = 2 * ppos p /\
       (exists v rest, pvals p = v :: rest /\ nth_error (log s) (ppos p) = Some v /\
                       (ppc p = 3 -> snd (slot_at s (ppos p)) = CVac) /\
                       (ppc p = 4 -> snd (slot_at s (ppos p)) = CPop v))) /\
    (forall n v, In (n, v) (ptix p) -> nth_error (log s) n = Some v) /\
    sdesc (map fst (ptix p)).

  Definition con_ok (s : cstate) : Prop :=
    cpc (con s) <= 5 /\
    (1 <= cpc (con s) <= 2 -> cdeq (con s) = deq s) /\
    (cpc (con s) = 2 ->
       cst (con s) = 2 * deq s \/
       (cst (con s) = 2 * deq s + 1 /\ fst (slot_at s (deq s)) = 2 * deq s + 1 /\ deq s < enq s)) /\
    (3 <= cpc (con s) -> deq s = S (cdeq (con s)) /\ cst (con s) = 2 * cdeq (con s) + 1 /\
                         fst (slot_at s (cdeq (con s))) = 2 * cdeq (con s) + 1).

  Record CInv (s : cstate) : Prop := {
    ci_cap : 1 <= cap s;
    ci_len : length (slots s) = cap s;
    ci_log : length (log s) = enq s;
    ci_err : cerr s = 0;
    ci_deq : deq s <= enq s;
    ci_full : enq s <= rel s + cap s;
    ci_slots : forall m, rel s <= m < rel s + cap s -> slot_ok s m;
    ci_prod : forall i p, nth_error (prods s) i = Some p -> prod_ok s p;
    ci_uniq : forall i j p q, nth_error (prods s) i = Some p -> nth_error (prods s) j = Some q ->
        i <> j -> in_flight p -> in_flight q -> ppos p <> ppos q;
    ci_con : con_ok s;
    ci_popped : popped s = firstn (taken s) (log s)
  }.

  Lemma slot_at_lap (s : cstate) m : 1 <= cap s -> slot_at s (m + cap s) = slot_at s m.
  Proof. intros H. unfold slot_at. rewrite mod_lap by exact H. reflexivity. Qed.

  Lemma rel_low (s : cstate) : cpc (con s) <= 2 -> rel s = deq s.
  Proof. intros H. unfold rel. destruct (Nat.leb_spec 3 (cpc (con s))); lia. Qed.

  Lemma rel_high (s : cstate) : 3 <= cpc (con s) -> rel s = deq s - 1.
  Proof. intros H. unfold rel. destruct (Nat.leb_spec 3 (cpc (con s))); lia. Qed.

  Lemma rel_le_deq (s : cstate) : rel s <= deq s.
  Proof. unfold rel. lia. Qed.

  Lemma taken_at_3 (s : cstate) : cpc (con s) = 3 -> taken s = deq s - 1.
  Proof. intros H. unfold taken. rewrite H. reflexivity. Qed.

  Lemma taken_off_3 (s : cstate) : cpc (con s) <> 3 -> taken s = deq s.
  Proof. intros H. unfold taken. destruct (Nat.eqb_spec (cpc (con s)) 3); lia. Qed.

  Lemma taken_le_deq (s : cstate) : taken s <= deq s.
  Proof. unfold taken. lia. Qed.

  (* the tickets whose slot is not yet free for the next lap: each of them owns its slot
     (rel is what lo is in the sequential model, Proofs/QueueProofs.v) *)
  Definition in_win (s : cstate) (m : nat) : Prop := rel s <= m < rel s + cap s.

  Lemma in_flight_facts (s : cstate) i p :
    CInv s -> nth_error (prods s) i = Some p -> in_flight p ->
    in_win s (ppos p) /\ deq s <= ppos p < enq s /\ fst (slot_at s (ppos p)) = 2 * ppos p.
  Proof.
    intros HI Hi Fp. destruct (ci_prod s HI i p Hi) as (_ & _ & _ & _ & P5 & _).
    destruct (P5 Fp) as (A & B & _ & D & _). pose proof (ci_full s HI). unfold in_win. lia.
  Qed.

  (* s' is s with x stored in the slot of ticket n; local states, popped and cerr are left open *)
  Definition wrote (s s' : cstate) (n : nat) (x : nat * cell V) : Prop :=
    cap s' = cap s /\ enq s' = enq s /\ deq s' = deq s /\ log s' = log s /\ slots s' = set_slot s n x.

  Lemma slot_at_wrote (s s' : cstate) n x m :
    CInv s -> wrote s s' n x ->
    slot_at s' m = if Nat.eqb (m mod cap s) (n mod cap s) then x else slot_at s m.
  Proof.
    intros HI (Ec & _ & _ & _ & Es). unfold slot_at, set_slot in *. rewrite Ec, Es, nth_lupd, (ci_len s HI).
    pose proof (Nat.mod_upper_bound n (cap s)) as Hn. pose proof (ci_cap s HI).
    destruct (Nat.ltb_spec (n mod cap s) (cap s)); [rewrite andb_true_r; reflexivity|lia].
  Qed.

  Lemma slot_at_wrote_win (s s' : cstate) n x m :
    CInv s -> wrote s s' n x -> in_win s n -> in_win s m ->
    slot_at s' m = if Nat.eqb m n then x else slot_at s m.
  Proof.
    intros HI Hw Hn Hm. rewrite (slot_at_wrote s s' n x m HI Hw).
    destruct (Nat.eqb_spec m n) as [->|Hne]; [rewrite Nat.eqb_refl; reflexivity|].
    destruct (Nat.eqb_spec (m mod cap s) (n mod cap s)) as [E|_]; [|reflexivity].
    destruct Hne. exact (mod_window (cap s) (rel s) m n (ci_cap s HI) Hm Hn E).
  Qed.

  Lemma slot_at_wrote_same (s s' : cstate) n x : CInv s -> wrote s s' n x -> in_win s n -> slot_at s' n = x.
  Proof. intros HI Hw Hn. rewrite (slot_at_wrote_win s s' n x n HI Hw Hn Hn), Nat.eqb_refl. reflexivity. Qed.

  Lemma stamp_wrote_mono (s s' : cstate) n x y :
    CInv s -> wrote s s' n x -> fst (slot_at s n) <= fst x -> fst (slot_at s y) <= fst (slot_at s' y).
  Proof.
    intros HI Hw Hx. rewrite (slot_at_wrote s s' n x y HI Hw).
    destruct (Nat.eqb_spec (y mod cap s) (n mod cap s)) as [E|_]; [|apply Nat.le_refl].
    unfold slot_at in *. rewrite E. exact Hx.
  Qed.

  Lemma slot_ok_ext (s s' : cstate) m :
    enq s <= enq s' -> (m < enq s' -> m < enq s) -> deq s' = deq s ->
    (forall n v, nth_error (log s) n = Some v -> nth_error (log s') n = Some v) ->
    slot_at s' m = slot_at s m -> (m < deq s -> cpc (con s') = cpc (con s)) ->
    slot_ok s m -> slot_ok s' m.
  Proof.
    intros He He' Ed Hl Es Hc [Hlt Hge]. unfold slot_ok, published_ok. rewrite Ed, Es.
    split; [|intros Hm; apply Hge; lia].
    intros Hm. destruct (Hlt (He' Hm)) as [[E [A B]]|E]; [left|right; exact E].
    split; [exact E|]. split.
    - intros Hd. destruct (A Hd) as (v & Hv & Hs). exists v. split; [apply Hl; exact Hv|exact Hs].
    - intros Hd. rewrite (Hc Hd). destruct (B Hd) as (B3 & B45). split; [|exact B45].
      intros H3. destruct (B3 H3) as (v & Hv & Hs). exists v. split; [apply Hl; exact Hv|exact Hs].
  Qed.

  Lemma borrow_facts (s : cstate) :
    CInv s -> 3 <= cpc (con s) ->
    deq s = S (cdeq (con s)) /\ rel s = cdeq (con s) /\ in_win s (cdeq (con s)) /\
    cst (con s) = 2 * cdeq (con s) + 1 /\ fst (slot_at s (cdeq (con s))) = 2 * cdeq (con s) + 1 /\
    (cpc (con s) = 3 -> exists v, nth_error (log s) (cdeq (con s)) = Some v /\ snd (slot_at s (cdeq (con s))) = CPop v) /\
    (cpc (con s) = 4 -> snd (slot_at s (cdeq (con s))) = CNone) /\
    (cpc (con s) = 5 -> snd (slot_at s (cdeq (con s))) = CVac).
  Proof.
    intros HI Hc. destruct (ci_con s HI) as (_ & _ & _ & K4). destruct (K4 Hc) as (D1 & D2 & D3).
    pose proof (rel_high s Hc) as Hr. pose proof (ci_cap s HI) as Hcap. pose proof (ci_deq s HI) as Hd.
    assert (Hw : in_win s (cdeq (con s))) by (unfold in_win; lia).
    split; [exact D1|]. split; [lia|]. split; [exact Hw|]. split; [exact D2|]. split; [exact D3|].
    destruct (ci_slots s HI _ Hw) as [Hlt _]. destruct (Hlt ltac:(lia)) as [[_ [_ B]]|E]; [|lia].
    apply B. lia.
  Qed.
End Inv.
