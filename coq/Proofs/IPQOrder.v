(* Order facts on the unique keys (key, epoch) of util/indexed_priority_queue.rs, the option
   monad of Model/IPQ.v, bounds-checked update and the parent/child arithmetic of the array heap. *)
Require Import NX.Base.Prelude NX.Base.ListX NX.Model.PQ NX.Model.IPQ NX.Proofs.PQProofs.

Definition ult (a b : hitem) : Prop := ukey_ltb a b = true.
Definition ule (a b : hitem) : Prop := ukey_leb a b = true.

(* ukey_ltb is item_ltb of Model/PQ.v read through the record projections, so the order of the
   heap items is the order item_lt of PQProofs.v on any items with the same keys and epochs *)
Lemma ult_item_lt {V} (x y : item V) a b :
  PQ.ikey x = hkey a -> iepoch x = hepoch a -> PQ.ikey y = hkey b -> iepoch y = hepoch b ->
  (ult a b <-> item_lt V x y).
Proof.
  unfold ult, ukey_ltb. intros <- <- <- <-. symmetry. apply reflect_iff, item_ltb_spec.
Qed.

Definition as_item (a : hitem) : item unit := {| PQ.ikey := hkey a; iepoch := hepoch a; ival := tt |}.

Lemma ult_as_item a b : ult a b <-> item_lt unit (as_item a) (as_item b).
Proof. apply ult_item_lt; reflexivity. Qed.

Lemma ule_iff a b : ule a b <-> ~ ult b a.
Proof. unfold ule, ult, ukey_leb. destruct (ukey_ltb b a); cbn; intuition congruence. Qed.

Lemma ukey_ltb_false a b : ukey_ltb a b = false <-> ule b a.
Proof. rewrite ule_iff. unfold ult. destruct (ukey_ltb a b); intuition congruence. Qed.

Lemma ule_total a b : ule a b \/ ult b a.
Proof. rewrite ule_iff. destruct (ukey_ltb b a) eqn:E; [right; exact E|left; unfold ult; congruence]. Qed.

Lemma ule_refl a : ule a a.
Proof. rewrite ule_iff, ult_as_item. apply item_lt_irrefl. Qed.

Lemma ule_trans a b c : ule a b -> ule b c -> ule a c.
Proof. rewrite !ule_iff, !ult_as_item. intros H1 H2. exact (item_nlt_trans _ _ _ _ H2 H1). Qed.

Lemma ult_ule a b : ult a b -> ule a b.
Proof.
  rewrite ule_iff, !ult_as_item. intros H1 H2. exact (item_lt_irrefl _ _ (item_lt_trans _ _ _ _ H1 H2)).
Qed.

(* the two mixed transitivities are negative transitivity read backwards *)
Lemma ult_ule_trans a b c : ult a b -> ule b c -> ult a c.
Proof.
  intros H1 H2. destruct (ule_total c a) as [H|H]; [|exact H].
  apply ule_iff in H1; [contradiction|]. exact (ule_trans _ _ _ H2 H).
Qed.

Lemma ule_ult_trans a b c : ule a b -> ult b c -> ult a c.
Proof.
  intros H1 H2. destruct (ule_total c a) as [H|H]; [|exact H].
  apply ule_iff in H2; [contradiction|]. exact (ule_trans _ _ _ H H1).
Qed.

Lemma item_nlt_antisym {V} (x y : item V) :
  ~ item_lt V x y -> ~ item_lt V y x -> PQ.ikey x = PQ.ikey y /\ iepoch x = iepoch y.
Proof.
  unfold item_lt. intros H1 H2.
  destruct (key_lt_total (PQ.ikey x) (PQ.ikey y)) as [K|[K|K]]; [tauto| |tauto].
  split; [exact K|]. destruct (N.lt_trichotomy (iepoch x) (iepoch y)) as [L|[L|L]]; [|exact L|]; exfalso; auto.
Qed.

Lemma ule_antisym a b : ule a b -> ule b a -> hkey a = hkey b /\ hepoch a = hepoch b.
Proof.
  rewrite !ule_iff, !ult_as_item. intros H1 H2. exact (item_nlt_antisym (as_item a) (as_item b) H2 H1).
Qed.

Lemma ule_key a b : ule a b -> key_le (hkey a) (hkey b).
Proof.
  rewrite ule_iff, ult_as_item. intros H. apply key_not_lt_le. intros K. apply H. left. exact K.
Qed.

Lemma bind_some {A B} (a : A) (f : A -> option B) : bind (Some a) f = f a.
Proof. reflexivity. Qed.

Lemma upd_lupd {A} (l : list A) i x :
  upd l i x = if Nat.ltb i (length l) then Some (lupd l i x) else None.
Proof.
  revert i; induction l as [|y r IH]; intros [|i]; cbn [upd lupd length]; auto.
  rewrite IH. change (Nat.ltb (S i) (S (length r))) with (Nat.ltb i (length r)).
  destruct (Nat.ltb i (length r)); reflexivity.
Qed.

Lemma upd_some {A} (l : list A) i x : i < length l -> upd l i x = Some (lupd l i x).
Proof. intros H. rewrite upd_lupd. destruct (Nat.ltb_spec i (length l)); [reflexivity|lia]. Qed.

Definition parent (i : nat) : nat := Nat.div (i - 1) 2.

Lemma parent_spec i : 0 < i -> exists r, r < 2 /\ i = 2 * parent i + 1 + r.
Proof.
  intros H. unfold parent. exists ((i - 1) mod 2).
  pose proof (Nat.div_mod (i - 1) 2 ltac:(lia)). pose proof (Nat.mod_upper_bound (i - 1) 2 ltac:(lia)). lia.
Qed.

Lemma parent_lt i : 0 < i -> parent i < i.
Proof. intros H. destruct (parent_spec i H) as (r & Hr & E). lia. Qed.

Lemma parent_child i c : 0 < i -> (parent i = c <-> i = 2 * c + 1 \/ i = 2 * c + 2).
Proof.
  intros H. destruct (parent_spec i H) as (r & Hr & E). split; [intros <-; lia|].
  intros [E2|E2]; lia.
Qed.
