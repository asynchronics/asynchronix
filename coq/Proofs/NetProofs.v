(* Message-passing layer of Model/Sim.v: the in-flight counter equals the number of queued messages, and what
   each verdict of the run classification means (C06); the deliveries of a send (C03); no pending delivery at
   quiescence (C04); initialisation (C16, concluded in NetInit.v); query replies in connection order (C14);
   one computation at a time per model (C05). *)
Require Import NX.Base.Prelude NX.Base.ListX NX.Model.Sim.
Require Import NX.Proofs.SimBasic NX.Proofs.NetSteps.

Fixpoint total_len {A} (l : list (list A)) : nat :=
  match l with [] => 0 | q :: r => length q + total_len r end.

Lemma total_len_app {A} (l1 l2 : list (list A)) : total_len (l1 ++ l2) = total_len l1 + total_len l2.
Proof. induction l1 as [|q r IH]; cbn; lia. Qed.

Lemma total_len_lupd {A} (l : list (list A)) : forall m old new,
  nth_error l m = Some old -> total_len (lupd l m new) + length old = total_len l + length new.
Proof.
  intros m old new H. destruct (nth_error_split_lupd _ _ _ H) as (pre & post & -> & _ & U).
  rewrite U, !total_len_app. cbn. lia.
Qed.

Definition count_ok (s : state) : Prop := inflight s = Z.of_nat (total_len (boxes s)).

Lemma net_step_count b s l s' : count_ok s -> net_step b s l = Some s' -> count_ok s'.
Proof.
  unfold count_ok, net_step. intros HC H. destruct (err s); [discriminate|]. destruct l as [t|t|t i].
  - destruct (step_start_boxes _ _ _ _ H) as (x & m & _ & _ & B). destruct (tinit x).
    + destruct B as [-> ->]. exact HC.
    + destruct B as (g & rest & EB & -> & ->).
      pose proof (total_len_lupd (boxes s) m (g :: rest) rest EB) as L. cbn [length] in L. lia.
  - apply step_op_keeps in H. destruct H as (-> & -> & _). exact HC.
  - apply step_deliver_inv in H. destruct H as (x & f & d & _ & _ & _ & H). cbv zeta in H.
    destruct (dtgt d) as [m g|sk v]; [|subst s'; exact HC].
    destruct H as (sp & q & _ & EB & [[_ ->]|(_ & _ & ->)]); [destruct (dthrow d); exact HC|].
    pose proof (total_len_lupd (boxes s) m q (q ++ [g]) EB) as L. rewrite app_length in L.
    cbn [length boxes inflight set_inflight set_boxes] in *. lia.
Qed.

Lemma net_run_count b fuel : forall ch s nd s' nd',
  count_ok s -> net_run b fuel ch s nd = Some (s', nd') -> count_ok s'.
Proof. apply (net_run_invariant b count_ok). intros s l s'. apply net_step_count. Qed.

Lemma total_len_zero {A} (l : list (list A)) :
  total_len l = 0 <-> forall m q, nth_error l m = Some q -> q = [].
Proof.
  split.
  - intros H m q E. destruct (nth_error_split_lupd _ _ _ E) as (pre & post & -> & _).
    rewrite total_len_app in H. cbn in H. apply length_zero_iff_nil. lia.
  - intros H. induction l as [|q r IH]; [reflexivity|]. cbn. rewrite (H 0 q eq_refl).
    apply IH. intros m q0 E. exact (H (S m) q0 E).
Qed.

(* the observed list: exactly the added models (all of them once sub-model
   observers are registered, i.e. bugF2 = false) with a non-empty mailbox, by
   qualified name and exact length, in registration order *)
Lemma observed_spec b s name n :
  In (name, n) (observed b s) <->
  exists m sp q, nth_error (bmodels b) m = Some sp /\ nth_error (boxes s) m = Some q /\
                 is_added sp = true /\ (is_top sp = true \/ bugF2 b = false) /\
                 q <> [] /\ name = mname b m /\ n = length q.
Proof.
  unfold observed. rewrite in_flat_map.
  assert (C : forall sp (q : list msg),
              is_added sp && (is_top sp || negb (bugF2 b)) && negb (Nat.eqb (length q) 0) = true <->
              is_added sp = true /\ (is_top sp = true \/ bugF2 b = false) /\ q <> []).
  { intros sp q. rewrite !andb_true_iff, orb_true_iff, !negb_true_iff, Nat.eqb_neq, length_zero_iff_nil. tauto. }
  split.
  - intros [m [_ H]]. destruct (nth_error (bmodels b) m) as [sp|] eqn:E1; [|destruct H].
    destruct (nth_error (boxes s) m) as [q|] eqn:E2; [|destruct H].
    destruct (is_added sp && _ && _) eqn:EC; [|destruct H]. destruct H as [H|[]]. injection H as <- <-.
    apply C in EC. exists m, sp, q. tauto.
  - intros (m & sp & q & E1 & E2 & E3 & E4 & E5 & -> & ->). exists m.
    split; [apply In_seqn; apply nth_error_some_lt in E1; lia|].
    rewrite E1, E2, (proj2 (C sp q)) by tauto. left. reflexivity.
Qed.

Theorem classify_iff b s :
  err s = None -> count_ok s ->
  (classify b s = ROk <-> forall m q, nth_error (boxes s) m = Some q -> q = []) /\
  (forall l, classify b s = RDeadlock l <-> l = observed b s /\ l <> []) /\
  (forall n, classify b s = RMessageLoss n <->
     observed b s = [] /\ n = Z.of_nat (total_len (boxes s)) /\ n <> 0%Z).
Proof.
  intros HE HC. unfold classify. rewrite HE. unfold count_ok in HC. rewrite HC.
  destruct (Z.eqb_spec (Z.of_nat (total_len (boxes s))) 0) as [E|E].
  - assert (Z0 : forall m q, nth_error (boxes s) m = Some q -> q = []) by (apply total_len_zero; lia).
    split; [split; [intros _; exact Z0|reflexivity]|].
    split; [intros l|intros n]; (split; [discriminate|]); [|intros (_ & -> & NZ); contradiction].
    (* an observed mailbox is not empty *)
    intros [-> NE]. destruct (observed b s) as [|[name n] r] eqn:EO; [congruence|].
    assert (Hin : In (name, n) (observed b s)) by (rewrite EO; left; reflexivity).
    apply observed_spec in Hin. destruct Hin as (m & sp & q & _ & Hq & _ & _ & Hne & _). destruct (Hne (Z0 m q Hq)).
  - split; [|split].
    + split; [destruct (observed b s); discriminate|].
      intros H. exfalso. apply E. apply (proj2 (total_len_zero (boxes s))) in H. lia.
    + intros l. destruct (observed b s) as [|o r].
      * split; [discriminate|intros [-> F]; congruence].
      * split; [intros H; injection H as <-; split; [auto|discriminate]|intros [-> _]; reflexivity].
    + intros n. destruct (observed b s) as [|o r].
      * split; [intros H; injection H as <-; auto|intros (_ & -> & _); reflexivity].
      * split; [discriminate|intros [F _]; discriminate].
Qed.

Definition delivery_of (c : conn) (v : Z) : delivery :=
  match ctgt c with
  | TgtModel m i => {| dtgt := DModel m {| minp := i; mval := (v + cadd c)%Z; mkd := KEvent None |}; dthrow := true |}
  | TgtSink sk => {| dtgt := DSink sk (v + cadd c)%Z; dthrow := true |}
  end.

Lemma conn_deliveries_spec cs v :
  conn_deliveries cs v = map (fun c => delivery_of c v) (filter (fun c => keep_ok (ckeep c) v) cs).
Proof.
  induction cs as [|c r IH]; cbn [conn_deliveries flat_map filter map]; auto.
  fold (conn_deliveries r v). rewrite IH. unfold delivery_of.
  destruct (keep_ok (ckeep c) v); [|reflexivity]. cbn [map]. destruct (ctgt c) eqn:E; cbn [app]; rewrite ?E; reflexivity.
Qed.

Lemma start_pops_head b s t s' x m :
  step_start b s t = Some s' -> nth_error (tasks s) t = Some x -> tk x = TKModel m -> tinit x = false ->
  exists g rest, nth_error (boxes s) m = Some (g :: rest) /\ boxes s' = lupd (boxes s) m rest /\
                 inflight s' = (inflight s - 1)%Z.
Proof.
  intros H H1 H2 H3. destruct (step_start_boxes _ _ _ _ H) as (x0 & m0 & E & K & B).
  rewrite H1 in E. injection E as <-. rewrite H2 in K. injection K as <-. rewrite H3 in B. exact B.
Qed.

(* In a quiescent, failure-free state with all mailboxes empty no task is left
   in the middle of a send: every delivery of every port operation was made. *)
Theorem quiescent_no_pending_delivery b s :
  net_enabled b s = [] -> err s = None ->
  (forall m q, nth_error (boxes s) m = Some q -> q = []) ->
  (forall m sp, nth_error (bmodels b) m = Some sp -> 1 <= mcap sp) ->
  length (boxes s) = length (bmodels b) ->
  forall t x f, nth_error (tasks s) t = Some x -> tfr x = Some f ->
    (forall d m g, In d (fpend f) -> dtgt d = DModel m g -> m < length (bmodels b)) ->
    fpend f = [].
Proof.
  intros HQ HE HB HC HL t x f Ht Hf Hwf.
  destruct (fpend f) as [|d ds] eqn:EP; [reflexivity|]. exfalso.
  pose proof (quiescent_no_step b s (LDeliver t 0) HQ) as N.
  unfold net_step in N. rewrite HE in N. unfold step_deliver in N. rewrite Ht, Hf, EP in N. cbn [nth_error] in N.
  destruct (dtgt d) as [m g|sk v] eqn:ED; [|destruct (nth_error (sinks s) sk); discriminate N].
  assert (Lm : m < length (bmodels b)) by (eapply Hwf; [left; reflexivity|exact ED]).
  destruct (nth_error (bmodels b) m) as [sp|] eqn:E1; [|apply nth_error_None in E1; lia].
  destruct (nth_error (boxes s) m) as [q|] eqn:E2; [|apply nth_error_None in E2; lia].
  rewrite (HB m q E2) in N. specialize (HC m sp E1). cbn [length] in N.
  destruct (Nat.ltb_spec 0 (mcap sp)); [|lia]. destruct (mplace sp); try discriminate N.
  destruct (dthrow d); discriminate N.
Qed.

Fixpoint inits (m : nat) (l : list entry) : nat :=
  match l with
  | [] => 0
  | EInit m' _ :: r => (if Nat.eqb m m' then 1 else 0) + inits m r
  | _ :: r => inits m r
  end.

Fixpoint handled (m : nat) (l : list entry) : nat :=
  match l with
  | [] => 0
  | EHandler m' _ _ _ :: r => (if Nat.eqb m m' then 1 else 0) + handled m r
  | EReplier m' _ _ _ :: r => (if Nat.eqb m m' then 1 else 0) + handled m r
  | _ :: r => handled m r
  end.

Lemma set_task_log s t x : log (set_task s t x) = log s.
Proof. reflexivity. Qed.

Definition is_init_entry (e : entry) : bool := match e with EInit _ _ => true | _ => false end.
Definition is_handler_entry (e : entry) : bool :=
  match e with EHandler _ _ _ _ | EReplier _ _ _ _ => true | _ => false end.

Definition entry_model (e : entry) : option nat :=
  match e with
  | EInit m _ | EHandler m _ _ _ | EReplier m _ _ _ | EReplies m _ => Some m
  | ESched m _ => m
  | _ => None
  end.

(* the first start of a model task runs its init - exactly then; messages already queued stay *)
Lemma start_runs_init b s t x m sp :
  nth_error (tasks s) t = Some x -> tk x = TKModel m -> tfr x = None -> tdone x = false ->
  tinit x = true -> nth_error (bmodels b) m = Some sp ->
  step_start b s t = Some (add_log (set_task s t (tset_tfr (tset_tinit x false)
                                     (Some (empty_frame (minit sp) 0 None)))) (EInit m (now s))).
Proof. intros H1 H2 H3 H4 H5 H6. unfold step_start. rewrite H1, H2, H3, H4, H6, H5. reflexivity. Qed.

Lemma msg_entry_kind m g t :
  is_handler_entry (msg_entry m g t) = true /\ is_init_entry (msg_entry m g t) = false /\
  entry_model (msg_entry m g t) = Some m.
Proof. unfold msg_entry. destruct (mkd g); auto. Qed.

Lemma start_log b s t s' x :
  step_start b s t = Some s' -> nth_error (tasks s) t = Some x ->
  (tinit x = true -> boxes s' = boxes s /\ exists m, tk x = TKModel m /\ log s' = EInit m (now s) :: log s) /\
  (tinit x = false -> log s' = log s \/
     exists e m, tk x = TKModel m /\ log s' = e :: log s /\ is_handler_entry e = true /\ entry_model e = Some m).
Proof.
  intros H H1. apply step_start_inv in H.
  destruct H as (x0 & m & sp & E & K & _ & _ & _ & H). rewrite H1 in E. injection E as <-.
  destruct H as [[I ->]|(I & g & rest & fr & _ & H)].
  - split; [intros _|congruence]. split; [reflexivity|]. exists m. auto.
  - split; [congruence|intros _]. cbv zeta in H.
    destruct (msg_cancelled s g); destruct H as [_ ->]; [left; reflexivity|].
    right. exists (msg_entry m g (now s)), m. destruct (msg_entry_kind m g (now s)) as (A & _ & B). auto.
Qed.

Lemma other_steps_log b s l s' :
  net_step b s l = Some s' -> (forall t, l <> LStart t) ->
  exists added, log s' = added ++ log s /\
    forallb (fun e => negb (is_init_entry e) && negb (is_handler_entry e)) added = true.
Proof.
  intros H NS. unfold net_step in H. destruct (err s); [discriminate|].
  destruct l as [t|t|t i]; [exfalso; eapply NS; reflexivity| |].
  - apply step_op_keeps in H. destruct H as (_ & _ & _ & [->|[(m & rs & ->)|(m & c & ->)]]);
      [exists []|eexists [_]|eexists [_]]; split; reflexivity.
  - apply step_deliver_keeps in H. destruct H as [-> _]. exists []. split; reflexivity.
Qed.

(* requests carry the requester and consecutive slot numbers, in CONNECTION ORDER *)
Lemma query_deliveries_spec t qs v : forall slot,
  query_deliveries t slot qs v =
  map (fun p : nat * qconn =>
         {| dtgt := DModel (qmodel (snd p)) {| minp := 0; mval := (v + qadd (snd p))%Z;
                                              mkd := KRequest (Some t) (fst p) (qrep (snd p)) (qradd (snd p)) |};
            dthrow := true |})
      (combine (seqn slot (length (filter (fun q => keep_ok (qkeep q) v) qs)))
               (filter (fun q => keep_ok (qkeep q) v) qs)).
Proof.
  induction qs as [|q r IH]; intros slot; cbn [query_deliveries filter]; [reflexivity|].
  destruct (keep_ok (qkeep q) v); [|apply IH].
  cbn [length seqn combine map fst snd]. f_equal. apply IH.
Qed.

Lemma query_waits_for_all b s t x f :
  nth_error (tasks s) t = Some x -> tfr x = Some f -> fpend f = [] -> fwait f <> [] ->
  opt_all (fwait f) = false -> step_op b s t = None.
Proof.
  intros H1 H2 H3 H4 H5. unfold step_op. rewrite H1, H2, H3.
  destruct (fwait f); [congruence|]. rewrite H5. reflexivity.
Qed.

Lemma query_yields_in_order b s t x f m :
  nth_error (tasks s) t = Some x -> tfr x = Some f -> fpend f = [] -> fwait f <> [] ->
  opt_all (fwait f) = true -> task_model x = Some m ->
  step_op b s t = Some (add_log (set_task s t (tset_tfr x (Some (fset_fwait f [])))) (EReplies m (opt_vals (fwait f)))).
Proof.
  intros H1 H2 H3 H4 H5 H6. unfold step_op. rewrite H1, H2, H3.
  destruct (fwait f) eqn:E; [congruence|]. rewrite H5, H6. reflexivity.
Qed.

Lemma reply_fills_its_slot s rt slot v y f :
  nth_error (tasks s) rt = Some y -> tfr y = Some f ->
  nth_error (tasks (deliver_reply s (Some (Some rt, slot, v)))) rt =
  Some (tset_tfr y (Some (fset_fwait f (lupd (fwait f) slot (Some v))))).
Proof.
  intros H1 H2. unfold deliver_reply. rewrite H1, H2. apply set_task_same. apply nth_error_Some. congruence.
Qed.

(* a model task that is running a handler (or its init) does not start another
   message: one computation at a time per model (C05) *)
Lemma busy_task_cannot_start b s t x f :
  nth_error (tasks s) t = Some x -> tfr x = Some f -> step_start b s t = None.
Proof. intros H1 H2. unfold step_start. rewrite H1. destruct (tk x); auto. rewrite H2. reflexivity. Qed.

(* only the owner task of model m starts messages of mailbox m *)
Lemma start_only_own_mailbox b s t s' x m' q :
  step_start b s t = Some s' -> nth_error (tasks s) t = Some x ->
  nth_error (boxes s) m' = Some q -> nth_error (boxes s') m' <> Some q -> tk x = TKModel m'.
Proof.
  intros H H1 Hq NE. destruct (step_start_boxes _ _ _ _ H) as (x0 & m & E & K & B).
  rewrite H1 in E. injection E as <-. destruct (Nat.eq_dec m m') as [<-|N]; [exact K|]. exfalso. apply NE.
  destruct (tinit x); [destruct B as [-> _]; exact Hq|].
  destruct B as (g & rest & _ & -> & _). rewrite nth_error_lupd_ne by exact N. exact Hq.
Qed.
