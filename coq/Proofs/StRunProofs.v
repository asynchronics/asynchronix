(* ExecutorInner::run of st_executor.rs (Model/StRun.v) leaves the two thread-locals of an enclosing executor
   as it found them, on every path; the run of the pinned tree does not. *)
Require Import NX.Base.Prelude NX.Model.StRun.

Theorem strun_fixed_spec : sr_spec strun_fixed.
Proof.
  unfold sr_spec. intros c0 i0 own d p. cbn.
  destruct p as [m|]; cbn.
  - repeat split; auto; intros F; discriminate F.
  - destruct (Z.eqb (own + d) 0) eqn:E; cbn; rewrite ?E; repeat split; auto.
Qed.

(* F6 / F7: after a panic of a nested run, the enclosing executor's count and model ID are lost *)
Lemma strun_pinned_refuted :
  let '(s, r) := sr_exec 1 (Some 7) (sr_init 5 (Some 3) 0) strun_pinned in
  tl_count s = 1%Z /\ tl_id s = None /\ r = Some (SRPanic (Some 7)).
Proof. vm_compute. auto. Qed.

Lemma strun_pinned_not_spec : ~ sr_spec strun_pinned.
Proof.
  intros H. specialize (H 5%Z (Some 3) 0%Z 1%Z (Some 7)). pose proof strun_pinned_refuted as R.
  destruct (sr_exec 1 (Some 7) (sr_init 5 (Some 3) 0) strun_pinned) as [s r].
  destruct H as [F _], R as [G _]. rewrite G in F. discriminate F.
Qed.
