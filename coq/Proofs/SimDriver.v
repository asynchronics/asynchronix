(* What one step of a run and a whole run leave alone; the driver's calls taken apart: how a run is
   classified, the paths through a bounded step, the scheduling commands; fatal results terminate. *)
Require Import NX.Base.Prelude NX.Base.ListX NX.Model.PQ NX.Model.Sim.
Require Import NX.Proofs.SimBasic NX.Proofs.NetSteps.

Lemma deliver_reply_char s r : frame_eq s (deliver_reply s r) /\ queue (deliver_reply s r) = queue s.
Proof.
  destruct (deliver_reply_cases s r) as [->|[[v ->]|(rt & slot & v & y & f & _ & _ & _ & ->)]];
    (split; [|reflexivity]); [apply frame_eq_refl|apply frame_nolog; reflexivity..].
Qed.

Definition queue_step (s s' : state) : Prop :=
  queue s' = queue s \/
  exists origin d mk keyed period s1 code k,
    sched_request s origin d mk keyed period true = (s1, code, k) /\ queue s' = queue s1.

Lemma step_start_frame b s t s' : step_start b s t = Some s' -> frame_eq s s' /\ queue s' = queue s.
Proof.
  intros H. apply step_start_inv in H.
  destruct H as (x & m & sp & _ & _ & _ & _ & _ & [[_ ->]|(_ & g & rest & fr & _ & H)]).
  - split; [eapply frame_single; reflexivity|reflexivity].
  - cbv zeta in H. destruct (msg_cancelled s g); destruct H as [_ ->]; (split; [|reflexivity]).
    + apply frame_nolog; reflexivity.
    + eapply frame_single; try reflexivity. unfold msg_entry. destruct (mkd g); reflexivity.
Qed.

Lemma step_deliver_frame b s t i s' : step_deliver b s t i = Some s' -> frame_eq s s' /\ queue s' = queue s.
Proof.
  intros H. apply step_deliver_inv in H. destruct H as (x & f & d & _ & _ & _ & H). cbv zeta in H.
  destruct (dtgt d) as [m g|sk v]; [|subst s'; split; [apply frame_nolog|]; reflexivity].
  destruct H as (sp & q & _ & _ & [[_ ->]|(_ & _ & ->)]); [destruct (dthrow d)|];
    (split; [apply frame_nolog|]; reflexivity).
Qed.

Lemma step_op_frame b s t s' : step_op b s t = Some s' -> frame_eq s s' /\ queue_step s s'.
Proof.
  unfold step_op. intros H.
  destruct (nth_error (tasks s) t) as [x|]; [|discriminate].
  destruct (tfr x) as [f|]; [|discriminate].
  destruct (fpend f); [|discriminate].
  destruct (fwait f).
  2:{ destruct (opt_all _); [|discriminate].
      destruct (task_model x); injection H as <-; (split; [|left; reflexivity]);
        [eapply frame_single; try reflexivity | apply frame_nolog; reflexivity]. }
  destruct (frest f) as [|o rest].
  { injection H as <-. split.
    - eapply frame_eq_trans; [|apply deliver_reply_char].
      destruct (tk x); apply frame_nolog; reflexivity.
    - left. rewrite (proj2 (deliver_reply_char _ _)). destruct (tk x); reflexivity. }
  destruct o; destruct (task_model x) as [mm|]; try discriminate H;
    try (destruct (nth_error (bmodels b) mm); [|discriminate H]);
    try (injection H as <-; split; [apply frame_nolog; reflexivity|left; reflexivity]).
  - (* OSched *)
    destruct (sched_request _ _ _ _ _ _ _) as [[s1 code] k] eqn:ES. injection H as <-. split.
    + apply sched_request_frame in ES. destruct ES as (A1 & A2 & A3 & A4 & A5 & _).
      eapply frame_single with (e := ESched (Some mm) code); cbn; auto.
      rewrite A5. reflexivity.
    + right. do 8 eexists. split; [exact ES|reflexivity].
  - (* OCancel *)
    injection H as <-. unfold cancel_key.
    destruct (nth slot (tkeys x) None); (split; [apply frame_nolog; reflexivity|left; reflexivity]).
Qed.

Lemma net_step_char b s l s' : net_step b s l = Some s' -> frame_eq s s' /\ queue_step s s'.
Proof.
  unfold net_step. destruct (err s); [discriminate|].
  destruct l; [intros H; apply step_start_frame in H|apply step_op_frame|intros H; apply step_deliver_frame in H];
    (split; [apply H|left; apply H]).
Qed.

Lemma net_run_frame b fuel ch s nd s' nd' :
  net_run b fuel ch s nd = Some (s', nd') -> frame_eq s s'.
Proof.
  intros H. apply (net_run_steps b frame_eq) in H; [apply H|apply frame_eq_refl|].
  intros s0 l s1 s2 E F. eapply frame_eq_trans; [eapply net_step_char, E|exact F].
Qed.

Lemma sim_run_cases b fuel ch s s' r nd :
  sim_run b fuel ch s = (s', r, nd) ->
  (s' = s /\ (terminated s = true /\ r = RTerminated \/ terminated s = false /\ r = RFuel)) \/
  exists s1, terminated s = false /\ net_run b fuel ch s false = Some (s1, nd) /\ r = classify b s1 /\
             s' = if is_ok r then s1 else set_terminated s1 true.
Proof.
  unfold sim_run. destruct (terminated s); [intros H; injection H as <- <- <-; auto|].
  destruct (net_run b fuel ch s false) as [[s1 nd1]|]; intros H; injection H as <- <- <-; [right|auto].
  exists s1. auto.
Qed.

Lemma sim_run_res b fuel ch s s' r nd :
  sim_run b fuel ch s = (s', r, nd) -> r = RTerminated \/ r = RFuel \/ run_res r = true.
Proof.
  intros H. apply sim_run_cases in H. destruct H as [(_ & [[_ ->]|[_ ->]])|(s1 & _ & _ & -> & _)]; auto.
  right; right. apply classify_run_res.
Qed.

Lemma sim_run_frame b fuel ch s s' r nd :
  sim_run b fuel ch s = (s', r, nd) ->
  now s' = now s /\ clockpos s' = clockpos s /\ dkeys s' = dkeys s /\
  exists l, log s' = l ++ log s /\ forallb plain_entry l = true.
Proof.
  intros H. apply sim_run_cases in H. destruct H as [(-> & _)|(s1 & _ & ER & _ & ->)].
  - repeat split. exists []. auto.
  - apply net_run_frame in ER. destruct ER as [A1 _ A3 A4 A5]. destruct (is_ok r); auto.
Qed.

Lemma sim_run_fatal b fuel ch s s' r nd :
  sim_run b fuel ch s = (s', r, nd) -> is_fatal r = true -> terminated s' = true.
Proof.
  intros H HF. apply sim_run_cases in H.
  destruct H as [(_ & [[_ ->]|[_ ->]])|(s1 & _ & _ & _ & ->)]; try discriminate HF.
  destruct r; try discriminate HF; reflexivity.
Qed.

Section QueuePredicate.
  Variable P : state -> Prop.
  Hypothesis P_ext : forall s s', queue s' = queue s -> now s' = now s -> P s -> P s'.
  Hypothesis P_request : forall s origin d mk keyed period s' code k,
    P s -> sched_request s origin d mk keyed period true = (s', code, k) -> P s'.

  Lemma net_step_keeps b s l s' : P s -> net_step b s l = Some s' -> P s'.
  Proof.
    intros HP H. destruct (net_step_char _ _ _ _ H) as [F [Q|(origin & d & mk & keyed & period & s1 & code & k & ES & Q)]].
    - apply (P_ext s); [exact Q|apply F|exact HP].
    - apply (P_ext s1); [exact Q| |eapply P_request; eauto].
      rewrite (fe_now _ _ F). symmetry. apply (sched_request_frame _ _ _ _ _ _ _ _ _ _ ES).
  Qed.

  Lemma sim_run_keeps b fuel ch s s' r nd : P s -> sim_run b fuel ch s = (s', r, nd) -> P s'.
  Proof.
    intros HP H. apply sim_run_cases in H. destruct H as [(-> & _)|(s1 & _ & ER & _ & ->)]; [exact HP|].
    apply (net_run_invariant b P (net_step_keeps b)) in ER; [|exact HP].
    destruct (is_ok r); [exact ER|]. apply (P_ext s1); auto.
  Qed.
End QueuePredicate.

(* How a run that stops is classified (C11). *)
Lemma sim_run_spec b fuel ch s s' r nd :
  sim_run b fuel ch s = (s', r, nd) ->
  (terminated s = true -> s' = s /\ r = RTerminated) /\
  (terminated s = false ->
     r = RFuel \/
     (r <> RTerminated /\ r <> RFuel /\ r <> RHang /\
      now s' = now s /\ clockpos s' = clockpos s /\ dkeys s' = dkeys s /\
      terminated s' = negb (is_ok r) /\
      exists l, log s' = l ++ log s /\ forallb plain_entry l = true)).
Proof.
  intros H. destruct (sim_run_frame _ _ _ _ _ _ _ H) as (A1 & A2 & A3 & A4).
  apply sim_run_cases in H. destruct H as [(-> & [[T ->]|[T ->]])|(s1 & T & ER & E & ->)].
  - split; [auto|congruence].
  - split; [congruence|auto].
  - split; [congruence|intros _; right].
    pose proof (classify_run_res b s1) as C. rewrite <- E in C.
    assert (T' : terminated (if is_ok r then s1 else set_terminated s1 true) = negb (is_ok r)).
    { destruct (is_ok r); [|reflexivity]. apply net_run_frame in ER. rewrite (fe_term _ _ ER). exact T. }
    repeat split; auto; intros ->; discriminate C.
Qed.

Lemma over_tolerance_some b ans lag : over_tolerance b ans = Some lag ->
  ans = Some lag /\ exists tol, btol b = Some tol /\ (tol < lag)%Z.
Proof.
  unfold over_tolerance. destruct ans as [l|]; [|discriminate].
  destruct (btol b) as [tol|]; [|discriminate].
  destruct (Z.ltb_spec tol l) as [L|L]; [|discriminate]. intros X; injection X as <-. eauto.
Qed.

Lemma spawn_fold gs : forall s, exists ts, fold_left spawn gs s = set_tasks s ts.
Proof.
  induction gs as [|g r IH]; intros s; cbn [fold_left].
  - exists (tasks s). destruct s; reflexivity.
  - destruct (IH (spawn s g)) as [ts E]. exists ts. rewrite E. reflexivity.
Qed.

(* [s3] is the state handed to the run: the queue after the critical section, the new time, the time write
   and the one clock call logged. *)
Lemma step_bounded_cases b fuel ch s bound s' r t nd :
  step_bounded b fuel ch s bound = (s', r, t, nd) ->
  (s' = s /\ r = RTerminated /\ t = None) \/
  exists nk q0, peek_next (S (pq_len (queue s))) s (queue s) bound = (nk, q0) /\
    ((nk = None /\ s' = set_queue s q0 /\ r = ROk /\ t = None) \/
     exists k, nk = Some k /\
       let s1 := add_log (set_now (set_queue s q0) (fst k)) (ETime (fst k)) in
       ((crit (S (pq_len q0)) s1 q0 bound k [] [] = None /\ r = RHang) \/
        exists q1 groups s3, crit (S (pq_len q0)) s1 q0 bound k [] [] = Some (q1, groups) /\
          queue s3 = q1 /\ now s3 = fst k /\ clockpos s3 = S (clockpos s) /\
          log s3 = EClock (fst k) :: ETime (fst k) :: log s /\
          let ans := nth (clockpos s) (bclock b) None in
          ((exists lag, over_tolerance b ans = Some lag /\ s' = set_terminated s3 true /\
                        r = ROutOfSync lag /\ t = None) \/
           (over_tolerance b ans = None /\ sim_run b fuel ch s3 = (s', r, nd) /\
            t = if is_ok r then Some (fst k) else None)))).
Proof.
  unfold step_bounded. destruct (terminated s && negb (bugF1 b)).
  { intros H; injection H as <- <- <- <-. auto. }
  destruct (peek_next _ s (queue s) bound) as [nk q0]. intros H. right. exists nk, q0. split; [reflexivity|].
  destruct nk as [k|]; [right; exists k; split; [reflexivity|]|injection H as <- <- <- <-; auto].
  cbv zeta. destruct (crit _ _ q0 bound k [] []) as [[q1 groups]|]; [right|injection H as <- <- <- <-; auto].
  destruct (spawn_fold groups (set_queue (add_log (set_now (set_queue s q0) (fst k)) (ETime (fst k))) q1)) as [ts E].
  rewrite E in H. unfold clock_sync in H.
  match type of H with context [sim_run b fuel ch ?x] => exists q1, groups, x end.
  do 5 (split; [reflexivity|]). cbv zeta.
  destruct (over_tolerance b _) as [lag|].
  - injection H as <- <- <- <-. left. exists lag. auto.
  - destruct (sim_run b fuel ch _) as [[s4 r4] nd4] eqn:ER. injection H as <- <- <- <-.
    right. auto.
Qed.

(* a fatal result leaves the simulation terminated (C11) *)
Lemma step_bounded_fatal b fuel ch s bound s' r t nd :
  step_bounded b fuel ch s bound = (s', r, t, nd) ->
  is_fatal r = true -> terminated s' = true.
Proof.
  intros H HF. apply step_bounded_cases in H.
  destruct H as [(_ & -> & _)|(nk & q0 & _ & H)]; [discriminate HF|].       (* terminated *)
  destruct H as [(_ & _ & -> & _)|(k & _ & H)]; [discriminate HF|].         (* nothing due *)
  destruct H as [[_ ->]|(q1 & groups & s3 & _ & _ & _ & _ & _ & H)]; [discriminate HF|].
  destruct H as [(lag & _ & -> & _)|(_ & ER & _)]; [reflexivity|].
  eapply sim_run_fatal; eauto.
Qed.

(* The one induction over step_until_unchecked.  [Inv] holds before every bounded step, [Q] of the state and
   result the loop ends with; [s3] is the state once the time is set to the target and the clock asked. *)
Lemma step_until_loop_steps b fuel ch target (Inv : state -> Prop) (Q : state -> res -> Prop) :
  (forall s, Inv s -> Q s RFuel) ->
  (forall s s1 r1 t1 nd1, Inv s -> step_bounded b fuel ch s (Some target) = (s1, r1, t1, nd1) ->
     if is_ok r1 then
       match t1 with
       | Some x => if Z.eqb x target then Q s1 ROk else Inv s1
       | None => let s3 := fst (clock_sync b (add_log (set_now s1 target) (ETime target)) target) in
                 Q s3 ROk /\ forall lag, Q (set_terminated s3 true) (ROutOfSync lag)
       end
     else Q s1 r1) ->
  forall n s nd0 s' r nd, Inv s -> step_until_loop b n fuel ch s target nd0 = (s', r, nd) -> Q s' r.
Proof.
  intros P0 P1. induction n as [|n IH]; intros s nd0 s' r nd HI H; cbn [step_until_loop] in H.
  { injection H as <- <- <-. apply P0, HI. }
  destruct (step_bounded b fuel ch s (Some target)) as [[[s1 r1] t1] nd1] eqn:ES.
  specialize (P1 _ _ _ _ _ HI ES).
  destruct (is_ok r1); [|injection H as <- <- <-; exact P1]. destruct t1 as [x|].
  - destruct (Z.eqb x target); [injection H as <- <- <-; exact P1|eapply IH; [exact P1|exact H]].
  - destruct P1 as [A B]. unfold clock_sync in *.
    destruct (bugF3 b); [|destruct (over_tolerance b _)]; injection H as <- <- <-; auto.
Qed.

Lemma step_until_loop_fatal b n fuel ch s target nd0 s' r nd :
  step_until_loop b n fuel ch s target nd0 = (s', r, nd) ->
  is_fatal r = true -> terminated s' = true.
Proof.
  apply (step_until_loop_steps b fuel ch target (fun _ => True)
           (fun s' r => is_fatal r = true -> terminated s' = true)); [discriminate| |exact I].
  intros s0 s1 r1 t1 nd1 _ ES. destruct (is_ok r1); [|eapply step_bounded_fatal, ES].
  destruct t1 as [x|]; [destruct (Z.eqb x target); [discriminate|exact I]|].
  split; [discriminate|reflexivity].
Qed.

(* non-fatal errors leave the state untouched and the simulation usable (C11) *)
Theorem invalid_deadline_unchanged b fuel s d ch :
  terminated s = false -> (dl_time d (now s) < now s)%Z ->
  exec_cmd b fuel s (CStepUntil d) ch = (s, RInvalidDeadline (dl_time d (now s)), false).
Proof.
  intros HT HL. cbn [exec_cmd]. rewrite HT. cbn [andb].
  destruct (Z.ltb_spec (dl_time d (now s)) (now s)); [reflexivity|lia].
Qed.

Definition is_sched_cmd (c : cmd) : bool :=
  match c with CSchedEvent _ _ _ _ _ _ | CSchedSrc _ _ _ _ _ => true | _ => false end.

Lemma sched_cmd_cases b fuel s c ch s' r nd :
  is_sched_cmd c = true -> exec_cmd b fuel s c ch = (s', r, nd) ->
  exists d mk keyed period chk slot s1 code k,
    sched_request s 0%N d mk keyed period chk = (s1, code, k) /\
    s' = store_dkey s1 slot k /\ r = RSched code /\
    match c with
    | CSchedEvent d' _ _ _ _ p => d = d' /\ period = p /\ chk = true
    | CSchedSrc d' _ _ _ p => d = d' /\ period = p /\ chk = negb (bugF4 b)
    | _ => False end.
Proof.
  intros HS H. destruct c; try discriminate HS; cbn [exec_cmd] in H;
    destruct (sched_request _ _ _ _ _ _ _) as [[s1 code] k] eqn:ES; injection H as <- <- <-;
    do 9 eexists; (split; [exact ES|]); auto.
Qed.

Theorem sched_error_unchanged b fuel s c ch s' code nd :
  is_sched_cmd c = true ->
  exec_cmd b fuel s c ch = (s', RSched code, nd) -> code <> 0%N -> s' = s.
Proof.
  intros HS H HC.
  destruct (sched_cmd_cases _ _ _ _ _ _ _ _ HS H) as (d & mk & keyed & p & chk & slot & s1 & code1 & k & ES & -> & E & _).
  injection E as <-. apply sched_request_code in ES. destruct ES as [_ E].
  destruct (E HC) as [-> ->]. destruct slot; reflexivity.
Qed.

(* the answer of a scheduling command, for every request kind (C08) *)
Theorem sched_cmd_answer b fuel s c ch s' r nd :
  is_sched_cmd c = true -> exec_cmd b fuel s c ch = (s', r, nd) ->
  exists d period chk,
    (match c with
     | CSchedEvent d' _ _ _ _ p => d = d' /\ period = p /\ chk = true
     | CSchedSrc d' _ _ _ p => d = d' /\ period = p /\ chk = negb (bugF4 b)
     | _ => False end) /\
    r = RSched (if chk && pzero period then 2%N
                else if Z.leb (dl_time d (now s)) (now s) then 1%N else 0%N).
Proof.
  intros HS H.
  destruct (sched_cmd_cases _ _ _ _ _ _ _ _ HS H) as (d & mk & keyed & p & chk & slot & s1 & code & k & ES & _ & -> & M).
  apply sched_request_code in ES. destruct ES as [-> _]. exists d, p, chk. auto.
Qed.
