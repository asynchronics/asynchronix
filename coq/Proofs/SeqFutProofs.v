(* SeqFuture::poll with the body [idx += 1; if idx == len return Ready] polls its sub-futures strictly in
   order, each until it is Ready and never again, returns Ready exactly with the poll in which the last one
   becomes Ready, and never indexes out of bounds - for every list of sub-futures and every number of
   Pending answers of each. *)
Require Import NX.Base.Prelude NX.Model.SeqFut.

Definition mkst (i c : nat) (tr : list nat) : sq_state :=
  {| qidx := i; qcur := c; qtrace := tr; qbad := false; qoob := false |}.

Lemma nth_error_mid {A} (pre : list A) k post : nth_error (pre ++ k :: post) (length pre) = Some k.
Proof. rewrite nth_error_app2 by lia. rewrite Nat.sub_diag. reflexivity. Qed.

Lemma poll_pending pre k post c tr f :
  c < k ->
  sq_poll (S f) seqfut_fixed (pre ++ k :: post) (mkst (length pre) c tr)
  = (mkst (length pre) (S c) (tr ++ [length pre]), false).
Proof.
  intros H. cbn [sq_poll mkst qidx qcur qtrace qbad qoob]. rewrite nth_error_mid.
  destruct (Nat.ltb_spec c k) as [_|X]; [|lia].
  destruct (Nat.ltb_spec k c) as [X|_]; [lia|]. reflexivity.
Qed.

Lemma poll_last pre k tr f :
  sq_poll (S f) seqfut_fixed (pre ++ [k]) (mkst (length pre) k tr)
  = (mkst (length (pre ++ [k])) 0 (tr ++ [length pre]), true).
Proof.
  cbn [sq_poll mkst qidx qcur qtrace qbad qoob]. rewrite nth_error_mid.
  rewrite Nat.ltb_irrefl. cbn [orb seqfut_fixed sq_body qidx qcur qtrace qbad qoob].
  rewrite app_length. cbn [length]. replace (length pre + 1) with (S (length pre)) by lia.
  rewrite Nat.eqb_refl. reflexivity.
Qed.

Lemma poll_next pre k k' post tr f :
  sq_poll (S f) seqfut_fixed (pre ++ k :: k' :: post) (mkst (length pre) k tr)
  = sq_poll f seqfut_fixed (pre ++ k :: k' :: post) (mkst (S (length pre)) 0 (tr ++ [length pre])).
Proof.
  cbn [sq_poll mkst qidx qcur qtrace qbad qoob]. rewrite nth_error_mid.
  rewrite Nat.ltb_irrefl. cbn [orb seqfut_fixed sq_body qidx qcur qtrace qbad qoob].
  rewrite app_length. cbn [length].
  destruct (Nat.eqb_spec (S (length pre)) (length pre + S (S (length post)))) as [X|_]; [lia|]. reflexivity.
Qed.

Lemma shift_pre {A} (pre : list A) k post : pre ++ k :: post = (pre ++ [k]) ++ post.
Proof. rewrite <- app_assoc. reflexivity. Qed.

Lemma poll_fuel post : forall pre k c tr f1 f2,
  c <= k -> length post < f1 -> length post < f2 ->
  sq_poll f1 seqfut_fixed (pre ++ k :: post) (mkst (length pre) c tr)
  = sq_poll f2 seqfut_fixed (pre ++ k :: post) (mkst (length pre) c tr).
Proof.
  induction post as [|k' post IH]; intros pre k c tr f1 f2 Hc H1 H2;
    destruct f1 as [|f1]; try (cbn in H1; lia); destruct f2 as [|f2]; try (cbn in H2; lia).
  - destruct (Nat.eq_dec c k) as [->|N].
    + rewrite !poll_last. reflexivity.
    + rewrite !poll_pending by lia. reflexivity.
  - destruct (Nat.eq_dec c k) as [->|N].
    + rewrite !poll_next. rewrite (shift_pre pre k (k' :: post)). rewrite <- (last_length pre k).
      apply IH; cbn [length] in *; lia.
    + rewrite !poll_pending by lia. reflexivity.
Qed.

Lemma polls_step n ks st :
  sq_polls (S n) seqfut_fixed ks st =
  match sq_poll (S (S (length ks))) seqfut_fixed ks st with
  | (st1, true) => (st1, true)
  | (st1, false) => if qoob st1 then (st1, false) else sq_polls n seqfut_fixed ks st1
  end.
Proof. reflexivity. Qed.

Definition ready_at (ks : list nat) (N : nat) (st st' : sq_state) : Prop :=
  sq_polls N seqfut_fixed ks st = (st', true) /\
  forall m, m < N -> snd (sq_polls m seqfut_fixed ks st) = false.

Lemma ready_at_later ks n st st1 st' :
  (forall m, sq_polls (S m) seqfut_fixed ks st = sq_polls m seqfut_fixed ks st1) ->
  ready_at ks n st1 st' -> ready_at ks (S n) st st'.
Proof.
  intros H [A B]. split; [rewrite H; exact A|].
  intros [|m] Hm; [reflexivity|]. rewrite H. apply B. lia.
Qed.

Lemma ready_at_same ks n st st1 st' :
  (forall m, sq_polls (S m) seqfut_fixed ks st = sq_polls (S m) seqfut_fixed ks st1) ->
  ready_at ks n st1 st' -> ready_at ks n st st'.
Proof.
  intros H [A B]. destruct n as [|n]; [discriminate A|]. split; [rewrite H; exact A|].
  intros [|m] Hm; [reflexivity|]. rewrite H. apply B. exact Hm.
Qed.

Lemma pending_run pre k post st' d : forall c tr n, k = c + d ->
  ready_at (pre ++ k :: post) n (mkst (length pre) k (tr ++ repeat (length pre) d)) st' ->
  ready_at (pre ++ k :: post) (d + n) (mkst (length pre) c tr) st'.
Proof.
  induction d as [|d IH]; intros c tr n E H.
  - cbn [repeat] in H. rewrite app_nil_r in H. replace c with k by lia. exact H.
  - apply (ready_at_later _ _ _ (mkst (length pre) (S c) (tr ++ [length pre]))).
    + intros m. rewrite polls_step, poll_pending by lia. reflexivity.
    + apply IH; [lia|]. rewrite <- app_assoc. exact H.
Qed.

Lemma polls_from post : forall pre k tr,
  ready_at (pre ++ k :: post) (S (sum_list post)) (mkst (length pre) k tr)
           (mkst (length (pre ++ k :: post)) 0 (tr ++ length pre :: sq_expected (S (length pre)) post)).
Proof.
  induction post as [|k' post IH]; intros pre k tr.
  - split; [|intros [|m] Hm; [reflexivity|cbn in Hm; lia]].
    cbn [sum_list fold_right sq_expected]. rewrite polls_step, poll_last. reflexivity.
  - (* that poll goes on with the next sub-future, which is then polled to completion *)
    apply (ready_at_same _ _ _ (mkst (S (length pre)) 0 (tr ++ [length pre]))).
    { intros n. rewrite !polls_step, poll_next, (shift_pre pre k (k' :: post)), <- (last_length pre k).
      rewrite (poll_fuel post (pre ++ [k]) k' 0 (tr ++ [length pre]) _ (S (S (length ((pre ++ [k]) ++ k' :: post)))));
        [reflexivity|lia| |]; rewrite app_length; cbn [length]; lia. }
    change (S (sum_list (k' :: post))) with (S (k' + sum_list post)). rewrite <- Nat.add_succ_r.
    rewrite (shift_pre pre k (k' :: post)), <- (last_length pre k).
    apply pending_run; [reflexivity|].
    specialize (IH (pre ++ [k]) k' ((tr ++ [length pre]) ++ repeat (length (pre ++ [k])) k')).
    cbn [sq_expected repeat]. rewrite repeat_cons, <- !app_assoc in *. exact IH.
Qed.

Theorem seqfut_fixed_spec k ks :
  sq_polls (S (sum_list (k :: ks))) seqfut_fixed (k :: ks) sq_init
  = ({| qidx := length (k :: ks); qcur := 0; qtrace := sq_expected 0 (k :: ks); qbad := false; qoob := false |}, true)
  /\ forall m, m <= sum_list (k :: ks) -> snd (sq_polls m seqfut_fixed (k :: ks) sq_init) = false.
Proof.
  pose proof (pending_run [] k ks _ k 0 [] _ eq_refl (polls_from ks [] k _)) as [A B].
  cbn [app length] in A, B. change (mkst 0 0 []) with sq_init in A, B.
  change (S (sum_list (k :: ks))) with (S (k + sum_list ks)). rewrite <- Nat.add_succ_r. split.
  - rewrite A. cbn [sq_expected repeat]. rewrite repeat_cons, <- app_assoc. reflexivity.
  - intros m Hm. apply B. change (sum_list (k :: ks)) with (k + sum_list ks) in Hm. lia.
Qed.

Lemma list_nat_eqb_refl l : list_nat_eqb l l = true.
Proof. induction l as [|x r IH]; cbn; [reflexivity|]. rewrite Nat.eqb_refl, IH. reflexivity. Qed.

Corollary seqfut_fixed_check k ks : sq_check seqfut_fixed (k :: ks) = true.
Proof.
  unfold sq_check. destruct (seqfut_fixed_spec k ks) as [A B]. rewrite A.
  specialize (B (sum_list (k :: ks)) (Nat.le_refl _)).
  destruct (sq_polls (sum_list (k :: ks)) seqfut_fixed (k :: ks) sq_init) as [st0 e]. cbn [snd] in B. subst e.
  cbn [qtrace qbad qoob negb andb]. rewrite list_nat_eqb_refl. reflexivity.
Qed.

(* refutations: a body that advances twice skips sub-futures; one that never tests for the end runs off it *)
Example seqfut_skip_refuted : sq_check seqfut_skip [1; 0; 2] = false.
Proof. vm_compute. reflexivity. Qed.
Example seqfut_norecheck_refuted : sq_check seqfut_norecheck [0] = false.
Proof. vm_compute. reflexivity. Qed.
Example seqfut_nonvacuous :
  fst (sq_polls 4 seqfut_fixed [1; 0; 2] sq_init)
  = {| qidx := 3; qcur := 0; qtrace := [0; 0; 1; 2; 2; 2]; qbad := false; qoob := false |}.
Proof. vm_compute. reflexivity. Qed.
