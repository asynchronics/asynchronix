(* Completeness of the critical section: an entry that leaves the queue during a step was either cancelled or
   has been fired (turned into a task).  With q_after (nothing due is left): every live action due at the
   step's time is fired in that step, and cancelling one action never removes another. *)
Require Import NX.Base.Prelude NX.Base.ListX NX.Model.PQ NX.Model.Sim.
Require Import NX.Proofs.SimQueue NX.Proofs.SimTerm.

Lemma crit_keeps fuel : forall s q bound cur group groups q' gs,
  crit fuel s q bound cur group groups = Some (q', gs) ->
  forall o, In o (concat groups) \/ In o group -> In o (concat gs).
Proof.
  induction fuel as [|f IH]; intros s q bound cur group groups q' gs H o Ho; [discriminate|].
  apply crit_unfold in H. destruct H as (k & a & q1 & nk & q2 & _ & _ & C). cbv zeta in C.
  assert (G : In o (concat (groups ++ [group ++ [aop a]]))).
  { rewrite concat_snoc, !in_app_iff. tauto. }
  destruct C as [[_ H]|[(k' & _ & _ & _ & H)|[_ E]]].
  - eapply IH; [exact H|]. rewrite in_app_iff. tauto.
  - eapply IH; [exact H|]. left. exact G.
  - injection E as _ ->. exact G.
Qed.

Lemma crit_fires f s q bound cur group groups q' gs k a q1 :
  crit (S f) s q bound cur group groups = Some (q', gs) -> pull_next q = Some (k, a, q1) ->
  In (aop a) (concat gs).
Proof.
  intros H EPN. apply crit_unfold in H. destruct H as (k0 & a0 & q0 & nk & q2 & EPN' & _ & C).
  rewrite EPN in EPN'. injection EPN' as <- <- <-. cbv zeta in C.
  assert (G : In (aop a) (concat (groups ++ [group ++ [aop a]]))).
  { rewrite concat_snoc. apply in_or_app. right. apply in_elt. }
  destruct C as [[_ H]|[(k' & _ & _ & _ & H)|[_ E]]].
  - eapply crit_keeps; [exact H|]. right. apply in_elt.
  - eapply crit_keeps; [exact H|]. left. exact G.
  - injection E as _ ->. exact G.
Qed.

Lemma crit_complete_pre fuel : forall s q bound cur group groups q' gs,
  crit_pre q cur -> crit fuel s q bound cur group groups = Some (q', gs) ->
  forall y, In y (items q) ->
    In y (items q') \/ key_cancelled s (akey (ival y)) = true \/ In (aop (ival y)) (concat gs).
Proof.
  induction fuel as [|f IH]; intros s q bound cur group groups q' gs PRE H y Hy; [discriminate|].
  pose proof H as H0. apply crit_unfold in H0. destruct H0 as (k & a & q1 & nk & q2 & EPN & EN & C).
  destruct (crit_round _ _ _ _ _ _ _ _ _ _ PRE EPN EN) as [m F].
  pose proof (cr_act F) as Ea. pose proof (cr_all F) as Hall. pose proof (cr_next F) as HN.
  destruct (Hall y Hy) as [->|[Hy2|Hc]]; [|clear H|auto].
  - right; right. rewrite <- Ea. eapply crit_fires; eauto.
  - destruct C as [[-> H]|[(k' & -> & _ & E & H)|[_ E]]].
    + eapply IH; [|exact H|exact Hy2]. auto.
    + eapply IH; [|exact H|exact Hy2]. auto.
    + injection E as -> _. auto.
Qed.

Lemma crit_complete fuel : forall s q bound cur group groups q' gs,
  pq_wf q -> q_from q (fst cur) -> (exists a0, pq_peek q = Some (cur, a0)) ->
  crit fuel s q bound cur group groups = Some (q', gs) ->
  forall y, In y (items q) ->
    In y (items q') \/ key_cancelled s (akey (ival y)) = true \/ In (aop (ival y)) (concat gs).
Proof. intros s q bound cur group groups q' gs HW HQ HP. apply crit_complete_pre, crit_pre_peek; assumption. Qed.
