(* Invariant of the blocking protocol of channel.rs for the program of the current tree. *)
Require Import NX.Base.Prelude NX.Base.ListX NX.Model.Chan.

Global Arguments S_ : simpl never.

Definition b2n (b : bool) : nat := if b then 1 else 0.
Fixpoint nsh (l : list csender) : nat := match l with [] => 0 | v :: r => b2n (sh v) + nsh r end.
Definition notes (s : cstate) : nat := b2n (rpend s) + nsh (csnd s).

Definition awake_pc (pc : spc) : bool :=
  match pc with SPoll | SCheck1 | SCheck2 | SCancel => true | _ => false end.
Definition in_pc (pc : spc) : bool :=
  match pc with SPoll | SCheck2 | SCancel | SSleep => true | _ => false end.
Definition will_notify_recv (pc : spc) : bool :=
  match pc with
  | SCancel => true
  | SPost ops => existsb (fun o => match o with SNotifyRecv => true | _ => false end) ops
  | _ => false
  end.
Definition post_ok (pc : spc) : Prop :=
  match pc with
  | SPost ops => ops = [SNotifyRecv; SCountInc] \/ ops = [SCountInc] \/ ops = []
  | _ => True
  end.
Definition got_ok (pc : rpc) : Prop :=
  match pc with
  | RGot ops => ops = [RCountDec; RTake; RRelease; RNotifyOne] \/ ops = [RTake; RRelease; RNotifyOne]
                \/ ops = [RRelease; RNotifyOne] \/ ops = [RNotifyOne] \/ ops = []
  | _ => True
  end.

Definition holds_msg (pc : rpc) : bool :=
  match pc with RGot ops => existsb (fun o => match o with RRelease => true | _ => false end) ops | _ => false end.

Record CInv (s : cstate) : Prop := {
  c_cap : cocc s <= ccap s;
  c_av : cavail s <= cocc s;
  c_hold : holds_msg (rpc_ s) = true -> S (cavail s) <= cocc s;
  c_post : forall x, post_ok (spc_ (S_ s x));
  c_got : got_ok (rpc_ s);
  c_sh : forall x, sh (S_ s x) = true ->
         sin (S_ s x) = false /\ (awake_pc (spc_ (S_ s x)) = true \/ (spc_ (S_ s x) = SSleep /\ swk (S_ s x) = true));
  c_in : forall x, sin (S_ s x) = true -> in_pc (spc_ (S_ s x)) = true /\ swk (S_ s x) = false;
  c_slp : forall x, spc_ (S_ s x) = SSleep -> sin (S_ s x) = false -> swk (S_ s x) = true;
  c_c2 : forall x, spc_ (S_ s x) = SCheck2 -> sin (S_ s x) = false -> swk (S_ s x) = true;
  c_aw : forall x, spc_ (S_ s x) = SCheck1 \/ spc_ (S_ s x) = SIns -> sin (S_ s x) = false /\ swk (S_ s x) = false;
  c_main : forall x, spc_ (S_ s x) = SSleep -> sin (S_ s x) = true -> ccap s - cocc s <= notes s;
  c_rp : rpend s = true <-> rpc_ s = RGot [RNotifyOne];
  c_r1 : rpc_ s = RSleep -> rreg s = true -> cavail s = 0 \/ exists x, will_notify_recv (spc_ (S_ s x)) = true;
  c_r2 : rpc_ s = RSleep -> rreg s = false -> rwk s = true;
  c_r4 : rpc_ s = RCheck2 -> rreg s = false -> rwk s = true
}.

(* The clauses of CInv about one sender, read pc by pc: which of the flags may be set where. *)
Definition sender_ok (v : csender) : Prop :=
  match spc_ v with
  | SIdle => sin v = false /\ sh v = false
  | SPost ops => sin v = false /\ sh v = false /\ post_ok (SPost ops)
  | SCheck1 => sin v = false /\ swk v = false
  | SIns => sin v = false /\ swk v = false /\ sh v = false
  | SPoll | SCancel => if sin v then swk v = false /\ sh v = false else True
  | SCheck2 | SSleep => if sin v then swk v = false /\ sh v = false else swk v = true
  end.

Definition sender_clauses (v : csender) : Prop :=
  post_ok (spc_ v) /\
  (sh v = true -> sin v = false /\ (awake_pc (spc_ v) = true \/ (spc_ v = SSleep /\ swk v = true))) /\
  (sin v = true -> in_pc (spc_ v) = true /\ swk v = false) /\
  (spc_ v = SSleep -> sin v = false -> swk v = true) /\
  (spc_ v = SCheck2 -> sin v = false -> swk v = true) /\
  (spc_ v = SCheck1 \/ spc_ v = SIns -> sin v = false /\ swk v = false).

Lemma cinv_clauses s x : CInv s -> sender_clauses (S_ s x).
Proof.
  intros I. exact (conj (c_post s I x) (conj (c_sh s I x) (conj (c_in s I x) (conj (c_slp s I x) (conj (c_c2 s I x) (c_aw s I x)))))).
Qed.

(* each row of the table, with the flag `sin` decided, leaves clauses between constants *)
Lemma sender_ok_clauses v : sender_ok v -> sender_clauses v.
Proof.
  unfold sender_ok, sender_clauses. destruct v as [pc i w h]. cbn [spc_ sin swk sh].
  destruct pc, i; cbn [awake_pc in_pc]; intros H; decompose [and] H; subst;
    intuition (try discriminate; try exact Logic.I; auto).
Qed.

Lemma clauses_sender_ok v : sender_clauses v -> sender_ok v.
Proof.
  unfold sender_ok, sender_clauses. destruct v as [pc i w h]. cbn [spc_ sin swk sh].
  intros (Hpost & Hsh & Hin & Hslp & Hc2 & Haw).
  assert (Iw : i = true -> w = false /\ h = false).
  { intros ->. split; [apply Hin; reflexivity|]. destruct h; [apply Hsh; reflexivity|reflexivity]. }
  assert (Ni : in_pc pc = false -> i = false).
  { intros E. destruct i; [|reflexivity]. destruct (Hin eq_refl) as [F _]. congruence. }
  assert (Nh : awake_pc pc = false -> pc <> SSleep -> h = false).
  { intros E N. destruct h; [|reflexivity]. destruct (Hsh eq_refl) as [_ [F|[F _]]]; [congruence|contradiction]. }
  destruct pc; cbn [in_pc awake_pc] in *.
  - split; [apply Ni|apply Nh]; (reflexivity || discriminate).
  - destruct i; [exact (Iw eq_refl)|exact Logic.I].
  - apply Haw. left. reflexivity.
  - destruct Haw as [A B]; [right; reflexivity|]. refine (conj A (conj B (Nh eq_refl _))). discriminate.
  - destruct i; [exact (Iw eq_refl)|exact (Hc2 eq_refl eq_refl)].
  - destruct i; [exact (Iw eq_refl)|exact Logic.I].
  - destruct i; [exact (Iw eq_refl)|exact (Hslp eq_refl eq_refl)].
  - refine (conj (Ni eq_refl) (conj (Nh eq_refl _) Hpost)). discriminate.
Qed.

Lemma cinv_sender s x : CInv s -> sender_ok (S_ s x).
Proof. intros I. apply clauses_sender_ok, cinv_clauses, I. Qed.

Lemma sender_ok_in v : sender_ok v -> sin v = true -> sh v = false /\ sender_ok (cmk_s (spc_ v) false true true).
Proof.
  destruct v as [pc i w h]. unfold sender_ok. cbn [spc_ sin swk sh cmk_s]. intros H ->.
  destruct pc; try (destruct H as [F _]; discriminate F); (split; [apply H|constructor]).
Qed.

Lemma S_upd s s' x v y : csnd s' = lupd (csnd s) x v -> x < length (csnd s) ->
  S_ s' y = if Nat.eqb y x then v else S_ s y.
Proof. intros E H. unfold S_. rewrite E. apply nth_lupd_lt, H. Qed.

Lemma S_nth_error s x v : nth_error (csnd s) x = Some v -> S_ s x = v /\ x < length (csnd s).
Proof. apply nth_error_nth_lt. Qed.

Lemma S_out s x : length (csnd s) <= x -> S_ s x = csdef.
Proof. intros H. unfold S_. apply nth_overflow; auto. Qed.

Lemma nsh_sum l : nsh l = list_sum (map (fun v => b2n (sh v)) l).
Proof. induction l as [|v l IH]; [reflexivity|]. cbn [nsh map list_sum fold_right]. rewrite IH. reflexivity. Qed.

Lemma nsh_lupd l x v : x < length l -> nsh (lupd l x v) + b2n (sh (nth x l csdef)) = nsh l + b2n (sh v).
Proof. intros H. rewrite !nsh_sum. apply (list_sum_map_lupd (fun v => b2n (sh v))), H. Qed.

Lemma existsb_sin_false l : existsb sin l = false -> forall x, sin (nth x l csdef) = false.
Proof.
  induction l as [|y l IH]; intros H x; [destruct x; reflexivity|].
  cbn [existsb] in H. apply orb_false_iff in H. destruct H as [H1 H2].
  destruct x; cbn [nth]; auto.
Qed.

Lemma nsh_repeat n : nsh (repeat csdef n) = 0.
Proof. induction n as [|n IH]; cbn [repeat nsh]; [reflexivity|]. rewrite IH. reflexivity. Qed.

Lemma S_init c n x : S_ (c_init c n) x = csdef.
Proof. apply nth_repeat. Qed.

Lemma cinv_init c n : CInv (c_init c n).
Proof.
  constructor.
  - apply Nat.le_0_l.
  - apply Nat.le_0_l.
  - discriminate.
  - intros x. rewrite S_init. exact Logic.I.
  - exact Logic.I.
  - intros x. rewrite S_init. discriminate.
  - intros x. rewrite S_init. discriminate.
  - intros x. rewrite S_init. discriminate.
  - intros x. rewrite S_init. discriminate.
  - intros x. rewrite S_init. intros [F|F]; discriminate F.
  - intros x. rewrite S_init. discriminate.
  - split; discriminate.
  - discriminate.
  - discriminate.
  - discriminate.
Qed.

Lemma c_run_invariant B (P : cstate -> Prop) :
  (forall s l s', P s -> c_step B s l = Some s' -> P s') -> forall ls s, P s -> P (c_run B s ls).
Proof.
  intros Hstep. induction ls as [|l ls IH]; intros s H; cbn [c_run]; [exact H|].
  destruct (c_step B s l) as [s'|] eqn:E; apply IH; [eapply Hstep; eauto|exact H].
Qed.
