(* Proofs about Model/PQ.v: the epoch-ordered queue refines the
   "first entry among those with the least key" specification. *)
Require Import NX.Base.Prelude NX.Model.PQ.

Section PQProofs.
  Variable V : Type.
  Notation item := (item V).
  Notation pq := (pq V).

  Definition item_lt (a b : item) : Prop :=
    key_lt (ikey a) (ikey b) \/ (ikey a = ikey b /\ (iepoch a < iepoch b)%N).

  Lemma item_ltb_spec a b : reflect (item_lt a b) (item_ltb a b).
  Proof.
    apply iff_reflect. unfold item_ltb, item_lt.
    rewrite orb_true_iff, andb_true_iff, key_ltb_iff, key_eqb_iff, N.ltb_lt. tauto.
  Qed.

  Lemma item_lt_irrefl a : ~ item_lt a a.
  Proof. unfold item_lt. intros [H|[_ H]]; [eapply key_lt_irrefl; eauto|lia]. Qed.

  Lemma item_lt_trans a b c : item_lt a b -> item_lt b c -> item_lt a c.
  Proof.
    unfold item_lt. intros [H1|[E1 H1]] [H2|[E2 H2]].
    - left; eapply key_lt_trans; eauto.
    - left; rewrite <- E2; auto.
    - left; rewrite E1; auto.
    - right; split; [congruence|lia].
  Qed.

  Lemma item_nlt_trans a b c : ~ item_lt a b -> ~ item_lt b c -> ~ item_lt a c.
  Proof.
    unfold item_lt. intros H1 H2 [H|[E H]].
    - destruct (key_lt_total (ikey a) (ikey b)) as [K|[K|K]]; [tauto| |].
      + apply H2. left. rewrite <- K. auto.
      + apply H2. left. eapply key_lt_trans; eauto.
    - destruct (key_lt_total (ikey a) (ikey b)) as [K|[K|K]]; [tauto| |].
      + destruct (N.lt_ge_cases (iepoch a) (iepoch b)) as [L|L]; [tauto|].
        apply H2. right. split; [congruence|lia].
      + apply H2. left. rewrite <- E. auto.
  Qed.

  Lemma min_item_spec (c : item) l :
    In (min_item c l) (c :: l) /\ forall y, In y (c :: l) -> ~ item_lt y (min_item c l).
  Proof.
    revert c; induction l as [|x r IH]; intros c; cbn [min_item].
    { split; [left; auto|]. intros y [<-|[]]. apply item_lt_irrefl. }
    destruct (item_ltb_spec x c) as [H|H].
    - destruct (IH x) as [I M]. split; [right; exact I|]. intros y [<-|Hy]; [|apply M, Hy].
      (* y = c, x < c, min <= x *)
      intros H2. apply (M x (or_introl eq_refl)). eapply item_lt_trans; eauto.
    - destruct (IH c) as [I M]. split; [destruct I; [left|right; right]; auto|].
      intros y [<-|[<-|Hy]]; [apply M; left; auto| |apply M; right; auto].
      eapply item_nlt_trans; [exact H|apply M; left; reflexivity].
  Qed.

  Definition proj (i : item) : key * V := (ikey i, ival i).

  Definition epochs_sorted (l : list item) : Prop :=
    forall i j a b, (i < j)%nat -> nth_error l i = Some a -> nth_error l j = Some b ->
                    (iepoch a < iepoch b)%N.

  Record R (q : pq) (s : list (key * V)) : Prop := {
    R_map : map proj (items q) = s;
    R_sorted : epochs_sorted (items q);
    R_bound : forall a, In a (items q) -> (iepoch a < next_epoch q)%N
  }.

  Lemma R_empty : R pq_empty [].
  Proof.
    split; cbn; auto.
    - intros i j a b _ H. destruct i; discriminate.
    - intros a [].
  Qed.

  Lemma R_insert q s k v : R q s -> R (pq_insert q k v) (s ++ [(k, v)]).
  Proof.
    intros [Hm Hs Hb]. split; cbn [pq_insert items next_epoch].
    - rewrite map_app, Hm. reflexivity.
    - intros i j a b Hij Ha Hb'.
      assert (Hj : (j < length (items q ++ [{| ikey := k; iepoch := next_epoch q; ival := v |}]))%nat)
        by (apply nth_error_Some; congruence).
      rewrite app_length in Hj; cbn [length] in Hj.
      rewrite nth_error_app1 in Ha by lia.
      destruct (Nat.eq_dec j (length (items q))) as [E|E].
      + rewrite nth_error_app2 in Hb' by lia. subst j. rewrite Nat.sub_diag in Hb'.
        cbn in Hb'. injection Hb' as <-. cbn [iepoch].
        apply Hb. eapply nth_error_In; eauto.
      + rewrite nth_error_app1 in Hb' by lia. exact (Hs i j a b Hij Ha Hb').
    - intros a Ha. apply in_app_or in Ha. destruct Ha as [Ha|[<-|[]]].
      + specialize (Hb a Ha). lia.
      + cbn [iepoch]. lia.
  Qed.

  (* The scan either keeps the current candidate [c], which is then least among
     the rest as well, or moves to the first entry of the rest with the least
     key, which is strictly below c. *)
  Lemma spec_min_idx_char (l : list (key * V)) : forall c curi i,
    (spec_min_idx (fst c) curi i l = curi /\ spec_min c l = c /\
     forall y, In y l -> key_le (fst c) (fst y)) \/
    (exists n x, spec_min_idx (fst c) curi i l = (i + n)%nat /\ nth_error l n = Some x /\
       spec_min c l = x /\ key_lt (fst x) (fst c) /\
       (forall y, In y l -> key_le (fst x) (fst y)) /\
       (forall m y, (m < n)%nat -> nth_error l m = Some y -> key_lt (fst x) (fst y))).
  Proof.
    induction l as [|x r IH]; intros c curi i; cbn [spec_min_idx spec_min].
    { left. split; [reflexivity|]. split; [reflexivity|]. intros y []. }
    destruct (key_ltb_spec (fst x) (fst c)) as [L|L].
    - right. destruct (IH x i (S i)) as [(E & M & A)|(n & x' & E & N & M & L' & A & B)]; rewrite E, M.
      + exists 0%nat, x. split; [lia|]. do 2 (split; [reflexivity|]). split; [exact L|]. split.
        * intros y [<-|Hy]; [apply key_le_refl|apply A, Hy].
        * intros m y Hm; lia.
      + exists (S n), x'. split; [lia|]. split; [exact N|]. split; [reflexivity|].
        split; [eapply key_lt_trans; eauto|]. split.
        * intros y [<-|Hy]; [left; exact L'|apply A, Hy].
        * intros [|m] y Hm Hy; cbn in Hy; [injection Hy as <-; exact L'|apply (B m); [lia|exact Hy]].
    - apply key_not_lt_le in L.
      destruct (IH c curi (S i)) as [(E & M & A)|(n & x' & E & N & M & L' & A & B)]; rewrite E, M.
      + left. do 2 (split; [reflexivity|]). intros y [<-|Hy]; [exact L|apply A, Hy].
      + right. exists (S n), x'. split; [lia|]. split; [exact N|]. split; [reflexivity|]. split; [exact L'|].
        pose proof (key_lt_le_trans _ _ _ L' L) as Lx. split.
        * intros y [<-|Hy]; [left; exact Lx|apply A, Hy].
        * intros [|m] y Hm Hy; cbn in Hy; [injection Hy as <-; exact Lx|apply (B m); [lia|exact Hy]].
  Qed.

  (* The specification's pull: what it returns, stated without reference to
     the scanning function. *)
  Theorem spec_pull_char (s : list (key * V)) x s' :
    spec_pull s = (Some x, s') ->
    exists i, nth_error s i = Some x /\ s' = remove_nth i s /\
      (forall j y, nth_error s j = Some y -> key_le (fst x) (fst y)) /\
      (forall j y, (j < i)%nat -> nth_error s j = Some y -> key_lt (fst x) (fst y)).
  Proof.
    destruct s as [|[k v] r]; cbn [spec_pull fst]; [discriminate|].
    destruct (spec_min_idx_char r (k, v) 0%nat 1%nat) as [(E & _ & A)|(n & z & E & N & _ & L & A & B)];
      cbn [fst] in *; rewrite E; cbn [Nat.add nth_error]; intros H; injection H as H1 <-.
    - subst x. exists 0%nat. do 2 (split; [reflexivity|]). split; [|intros j y Hj; lia].
      intros [|j] y Hy; cbn in Hy; [injection Hy as <-; apply key_le_refl|apply A; eapply nth_error_In; eauto].
    - rewrite N in H1. injection H1 as ->. exists (S n). split; [exact N|]. split; [reflexivity|]. split.
      + intros [|j] y Hy; cbn in Hy; [injection Hy as <-; left; exact L|apply A; eapply nth_error_In; eauto].
      + intros [|j] y Hj Hy; cbn in Hy; [injection Hy as <-; exact L|apply (B j); [lia|exact Hy]].
  Qed.

  Lemma spec_pull_none (s : list (key * V)) s' :
    spec_pull s = (None, s') -> s = [] /\ s' = [].
  Proof.
    destruct s as [|c r]; cbn [spec_pull]; [intros H; injection H as <-; auto|].
    destruct (spec_min_idx_char r c 0%nat 1%nat) as [(E & _)|(n & z & E & N & _)]; rewrite E;
      cbn [Nat.add nth_error]; rewrite ?N; discriminate.
  Qed.

  Lemma spec_peek_pull (s : list (key * V)) : spec_peek s = fst (spec_pull s).
  Proof.
    destruct s as [|c r]; cbn [spec_peek spec_pull fst]; auto.
    destruct (spec_min_idx_char r c 0%nat 1%nat) as [(E & M & _)|(n & x & E & N & M & _)]; rewrite E, M; auto.
  Qed.

  Lemma epochs_sorted_cons (x : item) r :
    epochs_sorted (x :: r) <-> (forall y, In y r -> (iepoch x < iepoch y)%N) /\ epochs_sorted r.
  Proof.
    split.
    - intros Hs. split.
      + intros y Hy. apply In_nth_error in Hy. destruct Hy as [j Hj].
        apply (Hs 0%nat (S j) x y); [lia|reflexivity|exact Hj].
      + intros i j a b Hij Ha Hb. apply (Hs (S i) (S j) a b); [lia|exact Ha|exact Hb].
    - intros [Hx Hr] i j a b Hij Ha Hb. destruct j as [|j]; [lia|]. cbn [nth_error] in Hb.
      destruct i as [|i]; cbn [nth_error] in Ha.
      + injection Ha as <-. apply Hx. eapply nth_error_In; eauto.
      + apply (Hr i j a b); [lia|exact Ha|exact Hb].
  Qed.

  Lemma sorted_epoch_inj (l : list item) a b :
    epochs_sorted l -> In a l -> In b l -> iepoch a = iepoch b -> a = b.
  Proof.
    intros Hs Ha Hb E. apply In_nth_error in Ha. apply In_nth_error in Hb.
    destruct Ha as [i Hi], Hb as [j Hj].
    destruct (Nat.lt_trichotomy i j) as [H|[H|H]].
    - specialize (Hs _ _ _ _ H Hi Hj). lia.
    - subst j. congruence.
    - specialize (Hs _ _ _ _ H Hj Hi). lia.
  Qed.

  Lemma remove_epoch_split (l : list item) m :
    epochs_sorted l -> In m l ->
    exists l1 l2, l = l1 ++ m :: l2 /\ remove_epoch (iepoch m) l = l1 ++ l2 /\ ~ In m (l1 ++ l2).
  Proof.
    induction l as [|x r IH]; intros Hs Hm; [destruct Hm|].
    apply epochs_sorted_cons in Hs. destruct Hs as [Hx Hr]. cbn [remove_epoch].
    destruct (N.eqb_spec (iepoch x) (iepoch m)) as [E|E].
    - assert (x = m) by (destruct Hm as [->|Hm]; [reflexivity|specialize (Hx m Hm); lia]). subst x.
      exists [], r. repeat split. intros Hin. specialize (Hx m Hin). lia.
    - destruct Hm as [->|Hm]; [congruence|].
      destruct (IH Hr Hm) as (l1 & l2 & -> & E2 & Hn).
      exists (x :: l1), l2. rewrite E2. repeat split. intros [->|Hin]; [congruence|exact (Hn Hin)].
  Qed.

  Lemma in_remove_epoch_iff (l : list item) x y :
    epochs_sorted l -> In x l -> (In y (remove_epoch (iepoch x) l) <-> In y l /\ y <> x).
  Proof.
    intros Hs Hx. destruct (remove_epoch_split l x Hs Hx) as (l1 & l2 & -> & -> & Hn).
    rewrite !in_app_iff in *. cbn [In]. split.
    - intros H. split; [tauto|]. intros ->. tauto.
    - intros [[H|[H|H]] NE]; [tauto|congruence|tauto].
  Qed.

  Lemma in_remove_epoch (l : list item) e y : In y (remove_epoch e l) -> In y l.
  Proof.
    induction l as [|x r IH]; cbn [remove_epoch]; [auto|].
    destruct (N.eqb _ _); cbn; [auto|]. intros [H|H]; auto.
  Qed.

  Lemma remove_epoch_length (l : list item) m :
    In m l -> S (length (remove_epoch (iepoch m) l)) = length l.
  Proof.
    induction l as [|x r IH]; cbn [remove_epoch]; [intros []|].
    destruct (N.eqb_spec (iepoch x) (iepoch m)) as [E|E]; cbn [length]; [auto|].
    intros [->|H]; [congruence|]. rewrite IH; auto.
  Qed.

  Lemma remove_epoch_nth (l : list item) : forall i a,
    epochs_sorted l -> nth_error l i = Some a ->
    remove_epoch (iepoch a) l = remove_nth i l.
  Proof.
    induction l as [|x r IH]; intros i a Hs Ha; [destruct i; discriminate|].
    apply epochs_sorted_cons in Hs. destruct Hs as [Hx Hr].
    cbn [remove_epoch]. destruct i as [|i]; cbn [remove_nth]; cbn in Ha.
    - injection Ha as ->. rewrite N.eqb_refl. reflexivity.
    - destruct (N.eqb_spec (iepoch x) (iepoch a)) as [E|E].
      + specialize (Hx a (nth_error_In _ _ Ha)). lia.
      + f_equal. apply IH; auto.
  Qed.

  Lemma map_remove_nth {A B} (f : A -> B) (l : list A) : forall i,
    map f (remove_nth i l) = remove_nth i (map f l).
  Proof.
    induction l as [|x r IH]; intros [|i]; cbn; auto. f_equal; auto.
  Qed.

  Lemma sorted_remove_nth (l : list item) : forall i,
    epochs_sorted l -> epochs_sorted (remove_nth i l).
  Proof.
    induction l as [|x r IH]; intros i Hs; [destruct i; exact Hs|].
    apply epochs_sorted_cons in Hs. destruct Hs as [Hx Hr].
    destruct i as [|i]; cbn [remove_nth]; [exact Hr|].
    apply epochs_sorted_cons. split; [|apply IH; exact Hr].
    intros y Hy. apply Hx. revert Hy. clear. revert i.
    induction r as [|z r IH]; intros [|i]; cbn; auto. intros [H|H]; eauto.
  Qed.

  Lemma remove_epoch_sorted (l : list item) m :
    epochs_sorted l -> In m l -> epochs_sorted (remove_epoch (iepoch m) l).
  Proof.
    intros Hs Hm. destruct (In_nth_error _ _ Hm) as [i Hi].
    rewrite (remove_epoch_nth _ i m Hs Hi). apply sorted_remove_nth. exact Hs.
  Qed.

  (* epochs increase along the list and stay below the counter: the part of R that
     does not mention the specification *)
  Definition pq_ok (a : pq) : Prop :=
    epochs_sorted (items a) /\ forall x, In x (items a) -> (iepoch x < next_epoch a)%N.

  Lemma pq_ok_empty : pq_ok pq_empty.
  Proof. destruct R_empty as [_ A B]. split; assumption. Qed.

  Lemma pq_ok_insert a k v : pq_ok a -> pq_ok (pq_insert a k v).
  Proof.
    intros [A B]. destruct (R_insert a _ k v (Build_R _ _ eq_refl A B)) as [_ A' B']. split; assumption.
  Qed.

  Lemma pq_ok_remove a x :
    pq_ok a -> In x (items a) -> pq_ok {| items := remove_epoch (iepoch x) (items a); next_epoch := next_epoch a |}.
  Proof.
    intros [Hs Hb] Hx. split; cbn [items next_epoch]; [apply remove_epoch_sorted; assumption|].
    intros y Hy. apply Hb. eapply in_remove_epoch; eauto.
  Qed.

  Lemma peek_item_min (a : pq) m :
    pq_peek_item a = Some m -> In m (items a) /\ forall y, In y (items a) -> ~ item_lt y m.
  Proof.
    unfold pq_peek_item. destruct (items a) as [|c l]; [discriminate|]. intros H. injection H as <-.
    apply min_item_spec.
  Qed.

  Lemma peek_item_spec (q : pq) m :
    pq_peek_item q = Some m ->
    In m (items q) /\ forall y, In y (items q) -> key_le (ikey m) (ikey y).
  Proof.
    intros H. apply peek_item_min in H. destruct H as [Hm N]. split; [exact Hm|].
    intros y Hy. apply key_not_lt_le. intros K. apply (N y Hy). left. exact K.
  Qed.

  Lemma peek_item_strict_min (q : pq) m :
    epochs_sorted (items q) -> pq_peek_item q = Some m ->
    In m (items q) /\ forall y, In y (items q) -> y = m \/ item_lt m y.
  Proof.
    intros Hs H. apply peek_item_min in H. destruct H as [Hm N]. split; [exact Hm|].
    intros y Hy. specialize (N y Hy). unfold item_lt in *.
    destruct (key_lt_total (ikey m) (ikey y)) as [K|[K|K]]; [right; left; exact K| |exfalso; apply N; left; exact K].
    destruct (N.lt_trichotomy (iepoch m) (iepoch y)) as [L|[L|L]].
    - right; right; split; assumption.
    - left. symmetry. eapply sorted_epoch_inj; eauto.
    - exfalso. apply N. right. split; [congruence|exact L].
  Qed.

  Lemma peek_item_least (a : pq) m :
    epochs_sorted (items a) -> In m (items a) -> (forall y, In y (items a) -> ~ item_lt y m) ->
    pq_peek_item a = Some m.
  Proof.
    intros Hs Hm Hle. destruct (pq_peek_item a) as [h|] eqn:E.
    - destruct (peek_item_strict_min a h Hs E) as [Hh Hmin].
      destruct (Hmin m Hm) as [->|L]; [reflexivity|destruct (Hle h Hh L)].
    - unfold pq_peek_item in E. destruct (items a); [destruct Hm|discriminate].
  Qed.

  Lemma pq_pull_peek (q : pq) : fst (pq_pull q) = pq_peek q.
  Proof. unfold pq_pull, pq_peek. destruct (pq_peek_item q); reflexivity. Qed.

  Lemma pq_pull_char (q : pq) k v q' :
    epochs_sorted (items q) -> pq_pull q = (Some (k, v), q') ->
    exists m l1 l2, pq_peek_item q = Some m /\ k = ikey m /\ v = ival m /\
      items q = l1 ++ m :: l2 /\ q' = {| items := l1 ++ l2; next_epoch := next_epoch q |} /\
      epochs_sorted (l1 ++ l2) /\ forall y, In y (l1 ++ l2) -> item_lt m y.
  Proof.
    intros Hs. unfold pq_pull. destruct (pq_peek_item q) as [m|] eqn:E; [|discriminate].
    intros H; injection H as <- <- <-.
    destruct (peek_item_strict_min q m Hs E) as [Hm Hmin].
    destruct (remove_epoch_split _ _ Hs Hm) as (l1 & l2 & E1 & E2 & Hn).
    exists m, l1, l2. rewrite <- E2. repeat split; auto.
    - apply remove_epoch_sorted; assumption.
    - intros y Hy. destruct (Hmin y (in_remove_epoch _ _ _ Hy)) as [->|L]; [|exact L].
      rewrite E2 in Hy. contradiction.
  Qed.

  Lemma pq_pull_some (q : pq) k a q' :
    pq_pull q = (Some (k, a), q') ->
    pq_peek q = Some (k, a) /\
    (forall y, In y (items q') -> In y (items q)) /\
    S (length (items q')) = length (items q) /\ next_epoch q' = next_epoch q.
  Proof.
    unfold pq_pull, pq_peek. destruct (pq_peek_item q) as [m|] eqn:E; [|discriminate].
    intros H; injection H as <- <- <-. cbn [items next_epoch]. split; auto.
    apply peek_item_spec in E. destruct E as [A B].
    split; [intros y; apply in_remove_epoch|]. split; auto. apply remove_epoch_length; auto.
  Qed.

  Lemma pq_peek_spec (q : pq) k a :
    pq_peek q = Some (k, a) ->
    exists m, In m (items q) /\ ikey m = k /\ ival m = a /\
              forall y, In y (items q) -> key_le k (ikey y).
  Proof.
    unfold pq_peek. destruct (pq_peek_item q) as [m|] eqn:E; [|discriminate].
    intros H; injection H as <- <-. apply peek_item_spec in E. destruct E as [A B]. eauto.
  Qed.

  Lemma pq_peek_none (q : pq) : pq_peek q = None -> items q = [].
  Proof. unfold pq_peek, pq_peek_item. destruct (items q); [auto|discriminate]. Qed.

  Lemma model_choice q s x s' :
    R q s -> spec_pull s = (Some x, s') ->
    exists m, pq_peek_item q = Some m /\ proj m = x /\
              R {| items := remove_epoch (iepoch m) (items q); next_epoch := next_epoch q |} s'.
  Proof.
    intros [Hm Hs Hb] Hp.
    destruct (spec_pull_char _ _ _ Hp) as [i [Hi [-> [Hle Hlt]]]].
    subst s. rewrite nth_error_map in Hi.
    destruct (nth_error (items q) i) as [m|] eqn:Em; [|discriminate]. injection Hi as <-.
    (* m is minimal for (key, epoch), as the head is *)
    assert (Hmm : forall y, In y (items q) -> ~ item_lt y m).
    { intros y Hy. apply In_nth_error in Hy. destruct Hy as [jy Hjy].
      assert (Hy' : nth_error (map proj (items q)) jy = Some (proj y)) by (rewrite nth_error_map, Hjy; reflexivity).
      specialize (Hle _ _ Hy'). cbn [proj fst] in Hle.
      intros [L|[E L]].
      - eapply key_le_not_lt; eauto.
      - destruct (Nat.lt_trichotomy jy i) as [T|[T|T]].
        + specialize (Hlt _ _ T Hy'). cbn [proj fst] in Hlt. rewrite E in Hlt.
          eapply key_lt_irrefl; eauto.
        + subst jy. rewrite Em in Hjy. injection Hjy as <-. lia.
        + specialize (Hs _ _ _ _ T Em Hjy). lia. }
    exists m. split; [apply peek_item_least; eauto using nth_error_In|]. split; [reflexivity|].
    rewrite (remove_epoch_nth _ i m Hs Em).
    split; cbn [items next_epoch].
    - apply map_remove_nth.
    - apply sorted_remove_nth; auto.
    - intros a Ha. apply Hb. rewrite <- (remove_epoch_nth _ i m Hs Em) in Ha. eapply in_remove_epoch; eauto.
  Qed.

  Lemma model_choice_none q s s' :
    R q s -> spec_pull s = (None, s') -> pq_peek_item q = None /\ s' = [] /\ s = [].
  Proof.
    intros [Hm _ _] Hp. apply spec_pull_none in Hp. destruct Hp as [-> ->].
    unfold pq_peek_item. destruct (items q); [auto|discriminate].
  Qed.

  Lemma step_refines q s o :
    R q s -> snd (pq_step q o) = snd (spec_step s o) /\
             R (fst (pq_step q o)) (fst (spec_step s o)).
  Proof.
    intros HR. destruct o as [k v| |]; cbn [pq_step spec_step fst snd].
    - split; auto. apply R_insert; auto.
    - unfold pq_pull. destruct (spec_pull s) as [[x|] s'] eqn:Ep.
      + destruct (model_choice _ _ _ _ HR Ep) as [m [-> [<- HR']]]. cbn. auto.
      + destruct (model_choice_none _ _ _ HR Ep) as [-> [-> ->]]. cbn. auto.
    - split; auto. rewrite spec_peek_pull. unfold pq_peek.
      destruct (spec_pull s) as [[x|] s'] eqn:Ep; cbn [fst].
      + destruct (model_choice _ _ _ _ HR Ep) as [m [-> [<- _]]]. reflexivity.
      + destruct (model_choice_none _ _ _ HR Ep) as [-> _]. reflexivity.
  Qed.

  Lemma run_refines ops : forall q s, R q s ->
    pq_run q ops = spec_run s ops /\ exists s', R (pq_exec q ops) s'.
  Proof.
    induction ops as [|o r IH]; intros q s HR; cbn [pq_run spec_run pq_exec]; [eauto|].
    destruct (step_refines q s o HR) as [H1 H2].
    destruct (pq_step q o) as [q' x], (spec_step s o) as [s' y]. cbn [fst snd] in *.
    subst y. destruct (IH _ _ H2) as [E X]. rewrite E. auto.
  Qed.

  Theorem pq_refines ops : pq_run pq_empty ops = spec_run (V:=V) [] ops.
  Proof. apply (run_refines ops _ _ R_empty). Qed.

  Theorem pq_reachable_R ops : exists s, R (pq_exec pq_empty ops) s.
  Proof. apply (run_refines ops _ _ R_empty). Qed.
End PQProofs.
