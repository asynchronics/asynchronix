(* What a write of sift_up / sift_down (Model/IPQ.v) does to the slab, and the child that
   sift_down selects. *)
Require Import NX.Base.Prelude NX.Base.ListX NX.Model.IPQ NX.Proofs.IPQOrder.

Section Sift.
  Variable V : Type.
  Notation node := (node V).

  Definition strip (n : node) : option nat + V :=
    match n with FreeNode nx => inl nx | HeapNode v _ => inr v end.

  Lemma set_hidx_some (sl : list node) i v h0 h :
    nth_error sl i = Some (HeapNode v h0) -> set_hidx sl i h = Some (lupd sl i (HeapNode v h)).
  Proof.
    intros H. unfold set_hidx. rewrite H, bind_some. apply upd_some. eapply nth_error_some_lt; eauto.
  Qed.

  Lemma strip_set (sl : list node) i v h0 h :
    nth_error sl i = Some (HeapNode v h0) -> map strip (lupd sl i (HeapNode v h)) = map strip sl.
  Proof.
    intros H. rewrite map_lupd. apply lupd_same. rewrite nth_error_map, H. reflexivity.
  Qed.

  Definition sel_child (hp : list hitem) (c : nat) (c0 : hitem) : nat :=
    match nth_error hp (2 * c + 1 + 1) with
    | Some c1 => if ukey_ltb c1 c0 then 2 * c + 1 + 1 else 2 * c + 1
    | None => 2 * c + 1
    end.

  Lemma sel_child_cases hp c c0 : sel_child hp c c0 = 2 * c + 1 \/ sel_child hp c c0 = 2 * c + 2.
  Proof.
    unfold sel_child. destruct (nth_error hp (2 * c + 1 + 1)) as [c1|]; [destruct (ukey_ltb c1 c0)|]; lia.
  Qed.
End Sift.
