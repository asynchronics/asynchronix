(* On a valid plain bench, a run of the net model that ends quiescent, without failure and with every mailbox
   empty (the call returns Ok) has an EMPTY POOL: no handler is left half-way and no init is pending.  This
   discharges the hypothesis `pool_of b s' = []` of the schedule-independence theorems.

   For queries: every reply slot still awaited has a CARRIER - the request is in a sender's hands, in a mailbox,
   or being served by a frame of a model with a larger index (queries go forward: bv_req); at quiescence with
   empty mailboxes a waiting frame is served by a frame of a larger model, which cannot wait for ever:
   induction on the distance to the last model. *)
Require Import NX.Base.Prelude NX.Base.ListX NX.Model.Sim NX.Model.Conf.
Require Import NX.Proofs.SimBasic NX.Proofs.NetSteps NX.Proofs.NetProofs NX.Proofs.NetInit NX.Proofs.ConfProofs.
Require Import NX.Proofs.ConfNet.

Record bench_valid (b : bench) : Prop := {
  bv_plain : bench_plain b = true;
  bv_cap : forall m sp, nth_error (bmodels b) m = Some sp -> 1 <= mcap sp;
  bv_out : forall m sp port c m' i, nth_error (bmodels b) m = Some sp ->
           In c (nth port (mouts sp) []) -> ctgt c = TgtModel m' i -> m' < length (bmodels b);
  bv_src : forall src c m' i, In c (nth src (bsources b) []) -> ctgt c = TgtModel m' i -> m' < length (bmodels b);
  bv_req : forall m sp port q, nth_error (bmodels b) m = Some sp ->
           In q (nth port (mreqs sp) []) -> m < qmodel q /\ qmodel q < length (bmodels b)
}.

(* carriers of awaited replies: (requester task, slot, model that holds / will serve the request) *)
Definition creq (m : nat) (g : msg) : list (nat * nat * nat) :=
  match mkd g with KRequest (Some rt) j _ _ => [(rt, j, m)] | _ => [] end.
Definition cdel (d : delivery) : list (nat * nat * nat) :=
  match dtgt d with DModel m g => creq m g | DSink _ _ => [] end.
Definition cserve (x : task) (f : frame) : list (nat * nat * nat) :=
  match freply f, tk x with Some (Some rt, j, _), TKModel m => [(rt, j, m)] | _, _ => [] end.
Definition cfr (x : task) : list (nat * nat * nat) :=
  match tfr x with None => [] | Some f => flat_map cdel (fpend f) ++ cserve x f end.
Fixpoint cbox (m0 : nat) (bs : list (list msg)) : list (nat * nat * nat) :=
  match bs with [] => [] | q :: r => flat_map (creq m0) q ++ cbox (S m0) r end.
Definition carriers (s : state) : list (nat * nat * nat) := cbox 0 (boxes s) ++ flat_map cfr (tasks s).

Definition TaskOK (b : bench) (t : nat) (x : task) : Prop :=
  match tk x with
  | TKModel m =>
      m = t /\ m < length (bmodels b) /\ tdone x = false /\
      forall f, tfr x = Some f -> forallb op_plain (frest f) = true
  | TKAction =>
      tinit x = false /\
      forall f, tfr x = Some f ->
        fwait f = [] /\ forallb is_action_op (frest f) = true /\
        forallb (op_target_ok (length (bmodels b))) (frest f) = true
  end /\
  forall f d m g, tfr x = Some f -> In d (fpend f) -> dtgt d = DModel m g -> m < length (bmodels b).

Definition Obl (s : state) : Prop :=
  forall rt x f j, nth_error (tasks s) rt = Some x -> tfr x = Some f ->
    nth_error (fwait f) j = Some None -> exists m, In (rt, j, m) (carriers s) /\ rt < m.

Record QInv (b : bench) (s : state) : Prop := {
  q_len : length (boxes s) = length (bmodels b);
  q_task : forall t x, nth_error (tasks s) t = Some x -> TaskOK b t x;
  q_obl : Obl s
}.

Definition reply_slot (r : option (option nat * nat * Z)) : option (nat * nat) :=
  match r with Some (Some rt, j, _) => Some (rt, j) | _ => None end.

Lemma in_cserve x f rt j m :
  In (rt, j, m) (cserve x f) -> tk x = TKModel m /\ reply_slot (freply f) = Some (rt, j).
Proof.
  unfold cserve, reply_slot. destruct (freply f) as [[[[rt'|] j'] v]|]; try (intros []).
  destruct (tk x); [intros [E|[]] | intros []]. injection E as -> -> ->. auto.
Qed.

Lemma cserve_same x x' f f' : tk x' = tk x -> freply f' = freply f -> cserve x' f' = cserve x f.
Proof. unfold cserve. intros -> ->. reflexivity. Qed.

Lemma cfr_none x : tfr x = None -> cfr x = [].
Proof. unfold cfr. intros ->. reflexivity. Qed.

Lemma cfr_some x f : tfr x = Some f -> cfr x = flat_map cdel (fpend f) ++ cserve x f.
Proof. unfold cfr. intros ->. reflexivity. Qed.

Lemma cfr_tset x f : cfr (tset_tfr x (Some f)) = flat_map cdel (fpend f) ++ cserve x f.
Proof. reflexivity. Qed.

Lemma q_model b s (Q : QInv b s) t x m : nth_error (tasks s) t = Some x -> tk x = TKModel m ->
  m = t /\ m < length (bmodels b) /\ tdone x = false.
Proof. intros H K. destruct (q_task b s Q t x H) as [A _]. rewrite K in A. tauto. Qed.

Lemma TaskOK_head b t x f o rest : TaskOK b t x -> tfr x = Some f -> frest f = o :: rest ->
  match tk x with
  | TKModel _ => task_model x = Some t /\ t < length (bmodels b) /\ op_plain o = true
  | TKAction => task_model x = None /\ is_action_op o = true /\ op_target_ok (length (bmodels b)) o = true
  end.
Proof.
  intros [A _] F R. unfold task_model. destruct (tk x).
  - destruct A as (-> & A2 & _ & A4). specialize (A4 f F). rewrite R in A4. apply andb_prop in A4. tauto.
  - destruct A as [_ A2]. destruct (A2 f F) as (_ & X & Y). rewrite R in X, Y. apply andb_prop in X, Y. tauto.
Qed.

Lemma TaskOK_frame b t x x' :
  TaskOK b t x -> tk x' = tk x -> tinit x' = tinit x -> (forall m, tk x = TKModel m -> tdone x' = tdone x) ->
  (forall f', tfr x' = Some f' -> exists f pre, tfr x = Some f /\ frest f = pre ++ frest f' /\
     (forall d m g, In d (fpend f') -> dtgt d = DModel m g -> In d (fpend f) \/ m < length (bmodels b)) /\
     (tk x = TKAction -> fwait f = [] -> fwait f' = [])) ->
  TaskOK b t x'.
Proof.
  intros [A B] K I D F. unfold TaskOK. rewrite K, I. split.
  - destruct (tk x) as [m|].
    + destruct A as (A1 & A2 & A3 & A4). rewrite (D m eq_refl). do 3 (split; [assumption|]).
      intros f' E. destruct (F f' E) as (f & pre & TF & FR & _). specialize (A4 f TF).
      rewrite FR, forallb_app in A4. apply andb_prop in A4. apply A4.
    + destruct A as [A1 A2]. split; [exact A1|]. intros f' E. destruct (F f' E) as (f & pre & TF & FR & _ & W).
      destruct (A2 f TF) as (W0 & X & Y). rewrite FR, forallb_app in X, Y. apply andb_prop in X, Y.
      split; [exact (W eq_refl W0)|]. split; [apply X | apply Y].
  - intros f' d m g E Hd Hg. destruct (F f' E) as (f & _ & TF & _ & P & _).
    destruct (P d m g Hd Hg) as [Hd'|L]; [exact (B f d m g TF Hd' Hg) | exact L].
Qed.

Lemma TaskOK_start b t x x' m script v r :
  TaskOK b t x -> tk x = TKModel m -> tk x' = tk x -> tdone x' = tdone x ->
  tfr x' = Some (empty_frame script v r) -> forallb op_plain script = true -> TaskOK b t x'.
Proof.
  intros [A _] M K D F P. unfold TaskOK. rewrite K, D, F. rewrite M in *. split.
  - destruct A as (A1 & A2 & A3 & _). do 3 (split; [assumption|]). intros f E. injection E as <-. exact P.
  - intros f d m0 g E. injection E as <-. intros [].
Qed.

Lemma cbox_empty bs : (forall m q, nth_error bs m = Some q -> q = []) -> forall m0, cbox m0 bs = [].
Proof.
  induction bs as [|q r IH]; intros H m0; [reflexivity|]. cbn [cbox].
  rewrite (H 0 q eq_refl). apply IH. intros m. exact (H (S m)).
Qed.

Lemma box_msgs_empty bs : (forall m q, nth_error bs m = Some q -> q = []) -> forall m0, box_msgs m0 bs = [].
Proof.
  induction bs as [|q r IH]; intros H m0; [reflexivity|]. cbn [box_msgs].
  rewrite (H 0 q eq_refl). apply IH. intros m. exact (H (S m)).
Qed.

Lemma frame_steps b s t x f :
  TaskOK b t x -> nth_error (tasks s) t = Some x -> tfr x = Some f -> fpend f = [] ->
  opt_all (fwait f) = true -> step_op b s t <> None.
Proof.
  intros OK Ht Hf Hp Hw. unfold step_op. rewrite Ht, Hf, Hp.
  destruct (fwait f) as [|w ws]; [|rewrite Hw; destruct (task_model x); discriminate].
  destruct (frest f) as [|o rest] eqn:FR; [discriminate|].
  (* a model task can run each kind of plain op, an action task those of is_action_op *)
  pose proof (TaskOK_head b t x f o rest OK Hf FR) as H. destruct (tk x).
  - destruct H as (-> & L & P).
    destruct (nth_error (bmodels b) t) eqn:ES; [|apply nth_error_None in ES; lia].
    destruct o; try discriminate P; try discriminate.
    destruct (sched_request _ _ _ _ _ _ _) as [[s1 code] k]. discriminate.
  - destruct H as (-> & A & _). destruct o; try discriminate A; discriminate.
Qed.

Section Quiet.
  Variable b : bench.
  Variable s : state.
  Hypothesis BV : bench_valid b.
  Hypothesis NI : NInv s.
  Hypothesis QI : QInv b s.
  Hypothesis HQ : net_enabled b s = [].
  Hypothesis HE : err s = None.
  Hypothesis HB : forall m q, nth_error (boxes s) m = Some q -> q = [].

  Lemma q_fpend_nil t x f : nth_error (tasks s) t = Some x -> tfr x = Some f -> fpend f = [].
  Proof.
    intros Ht Hf. apply (quiescent_no_pending_delivery b s HQ HE HB (bv_cap b BV) (q_len b s QI) t x f Ht Hf).
    intros d m g. exact (proj2 (q_task b s QI t x Ht) f d m g Hf).
  Qed.

  Lemma waiting_frame_served_later t x f : nth_error (tasks s) t = Some x -> tfr x = Some f ->
    exists t' x' f', nth_error (tasks s) t' = Some x' /\ tfr x' = Some f' /\ t < t' < length (bmodels b).
  Proof.
    intros Ht Hf. destruct (opt_all (fwait f)) eqn:Hw.
    { exfalso. apply (frame_steps b s t x f (q_task b s QI t x Ht) Ht Hf (q_fpend_nil t x f Ht Hf) Hw).
      pose proof (quiescent_no_step b s (LOp t) HQ) as N. unfold net_step in N. rewrite HE in N. exact N. }
    destruct (opt_all_false _ Hw) as [j Hj].
    destruct (q_obl b s QI t x f j Ht Hf Hj) as (m & Hin & Hlt).
    unfold carriers in Hin. rewrite (cbox_empty _ HB 0) in Hin.
    apply in_flat_map in Hin. destruct Hin as (x' & Hx' & Hin).
    apply In_nth_error in Hx'. destruct Hx' as [t' Ht']. exists t', x'.
    destruct (tfr x') as [f'|] eqn:Hf'; [|rewrite (cfr_none x' Hf') in Hin; destruct Hin].
    rewrite (cfr_some x' f' Hf'), (q_fpend_nil t' x' f' Ht' Hf') in Hin. apply in_cserve in Hin.
    destruct (q_model b s QI t' x' m Ht' (proj1 Hin)) as (<- & Lm & _). eauto.
  Qed.

  Lemma no_frame t x : nth_error (tasks s) t = Some x -> tfr x = None.
  Proof.
    intros Ht. destruct (tfr x) as [f|] eqn:Hf; [exfalso|reflexivity].
    remember (length (bmodels b) - t) as k eqn:Ek. revert t x f Ht Hf Ek.
    induction k as [k IH] using lt_wf_ind. intros t x f Ht Hf ->.
    destruct (waiting_frame_served_later t x f Ht Hf) as (t' & x' & f' & Ht' & Hf' & L).
    exact (IH (length (bmodels b) - t') ltac:(lia) t' x' f' Ht' Hf' eq_refl).
  Qed.

  Lemma no_pending_init t x : nth_error (tasks s) t = Some x -> tinit x = false.
  Proof.
    intros Ht. destruct (tk x) as [m|] eqn:TK.
    - destruct (q_model b s QI t x m Ht TK) as (_ & Lm & TD).
      destruct (nth_error (bmodels b) m) as [sp|] eqn:ES; [|apply nth_error_None in ES; lia].
      exact (quiescent_all_initialised b s t x m sp HQ HE Ht TK TD (no_frame t x Ht) ES).
    - destruct (q_task b s QI t x Ht) as [A _]. rewrite TK in A. apply A.
  Qed.

  Theorem quiet_pool_empty : pool_of b s = [].
  Proof.
    unfold pool_of. rewrite (box_msgs_empty _ HB 0). cbn [app].
    apply flat_map_nil. intros x Hx. apply In_nth_error in Hx. destruct Hx as [t Ht].
    unfold task_msgs. rewrite (no_pending_init t x Ht), (no_frame t x Ht). reflexivity.
  Qed.

  (* NI is not used *)
  Theorem quiescent_pool_empty : pool_of b s = [].
  Proof using All. exact quiet_pool_empty. Qed.
End Quiet.

Lemma cbox_app l1 : forall m0 l2, cbox m0 (l1 ++ l2) = cbox m0 l1 ++ cbox (m0 + length l1) l2.
Proof.
  induction l1 as [|q r IH]; intros m0 l2; cbn [app cbox length]; [rewrite Nat.add_0_r; reflexivity|].
  rewrite IH, <- app_assoc, Nat.add_succ_r. reflexivity.
Qed.

Lemma cbox_lupd bs m q : nth_error bs m = Some q ->
  exists rest, Permutation (cbox 0 bs) (flat_map (creq m) q ++ rest) /\
               forall q', Permutation (cbox 0 (lupd bs m q')) (flat_map (creq m) q' ++ rest).
Proof.
  intros H. destruct (nth_error_split_lupd _ _ _ H) as (pre & post & -> & <- & U).
  exists (cbox 0 pre ++ cbox (S (length pre)) post).
  split; [|intros q'; rewrite U]; rewrite cbox_app; cbn [cbox Nat.add]; apply Permutation_app_swap_app.
Qed.

Lemma carriers_upd s s' t x x' : nth_error (tasks s) t = Some x -> tasks s' = lupd (tasks s) t x' ->
  forall z, (In z (carriers s) -> In z (cfr x ++ cbox 0 (boxes s)) \/ In z (carriers s')) /\
            (In z (cfr x' ++ cbox 0 (boxes s')) -> In z (carriers s')).
Proof.
  intros E ET z. destruct (flat_map_lupd cfr _ _ _ E) as (rest & H1 & H2).
  unfold carriers. rewrite ET, H1, (H2 x'), !in_app_iff. tauto.
Qed.

(* the invariant but for one reply: the slot e may be awaited without a carrier *)
Definition Obl_but (e : option (nat * nat)) (s : state) : Prop :=
  forall rt x f j, nth_error (tasks s) rt = Some x -> tfr x = Some f -> nth_error (fwait f) j = Some None ->
    e = Some (rt, j) \/ exists m, In (rt, j, m) (carriers s) /\ rt < m.

Definition QInv_but (e : option (nat * nat)) (b : bench) (s : state) : Prop :=
  length (boxes s) = length (bmodels b) /\
  (forall t x, nth_error (tasks s) t = Some x -> TaskOK b t x) /\ Obl_but e s.

Lemma QInv_but_none b s : QInv_but None b s -> QInv b s.
Proof.
  intros (L & T & O). split; [exact L | exact T |].
  intros rt x f j E F N. destruct (O rt x f j E F N) as [X|X]; [discriminate X | exact X].
Qed.

(* Task t becomes x', the mailboxes may change.  Carriers held by t or lying in a mailbox stay so, except for
   those of the slot e; a slot x' waits on was awaited by x or has a carrier in the hands of x'. *)
Lemma QInv_upd_but e b s s' t x x' :
  QInv b s -> nth_error (tasks s) t = Some x -> tasks s' = lupd (tasks s) t x' ->
  length (boxes s') = length (boxes s) -> TaskOK b t x' ->
  (forall rt j m, In (rt, j, m) (cfr x ++ cbox 0 (boxes s)) ->
     In (rt, j, m) (cfr x' ++ cbox 0 (boxes s')) \/ e = Some (rt, j)) ->
  (forall f' j, tfr x' = Some f' -> nth_error (fwait f') j = Some None ->
     (exists f, tfr x = Some f /\ nth_error (fwait f) j = Some None) \/
     (exists m, In (t, j, m) (cfr x') /\ t < m)) ->
  QInv_but e b s'.
Proof.
  intros Q EX ET EL OK Hc Hw. split; [rewrite EL; exact (q_len b s Q)|]. split.
  { intros t0 x0 E0. rewrite ET in E0. apply nth_error_lupd_inv in E0.
    destruct E0 as [[-> ->]|[_ E0]]; [exact OK | exact (q_task b s Q t0 x0 E0)]. }
  pose proof (carriers_upd s s' t x x' EX ET) as C.
  assert (Old : forall rt y f j, nth_error (tasks s) rt = Some y -> tfr y = Some f ->
            nth_error (fwait f) j = Some None ->
            e = Some (rt, j) \/ exists m, In (rt, j, m) (carriers s') /\ rt < m).
  { intros rt y f j E F N. destruct (q_obl b s Q rt y f j E F N) as (m & Hin & Hlt).
    destruct (proj1 (C _) Hin) as [Hin'|Hin']; [|right; eauto].
    destruct (Hc rt j m Hin') as [Hin''|X]; [right; exists m; split; [apply C, Hin'' | exact Hlt] | left; exact X]. }
  intros rt y f' j E F N. rewrite ET in E. apply nth_error_lupd_inv in E.
  destruct E as [[-> ->]|[_ E]]; [|exact (Old rt y f' j E F N)].
  destruct (Hw f' j F N) as [(f & F0 & N0)|(m & Hin & Hlt)]; [exact (Old t x f j EX F0 N0)|].
  right. exists m. split; [|exact Hlt]. apply C, in_or_app. left. exact Hin.
Qed.

Lemma QInv_upd b s s' t x x' :
  QInv b s -> nth_error (tasks s) t = Some x -> tasks s' = lupd (tasks s) t x' ->
  length (boxes s') = length (boxes s) -> TaskOK b t x' ->
  (forall z, In z (cfr x ++ cbox 0 (boxes s)) -> In z (cfr x' ++ cbox 0 (boxes s'))) ->
  (forall f' j, tfr x' = Some f' -> nth_error (fwait f') j = Some None ->
     (exists f, tfr x = Some f /\ nth_error (fwait f) j = Some None) \/
     (exists m, In (t, j, m) (cfr x') /\ t < m)) ->
  QInv b s'.
Proof.
  intros Q EX ET EL OK Hc Hw. apply QInv_but_none.
  apply (QInv_upd_but None b s s' t x x' Q EX ET EL OK); [|exact Hw]. intros rt j m Hin. left. exact (Hc _ Hin).
Qed.

(* the reply fills the one slot that had no carrier *)
Lemma deliver_reply_QInv b s r : QInv_but (reply_slot r) b s -> QInv b (deliver_reply s r).
Proof.
  intros (L & T & O). unfold deliver_reply.
  destruct r as [[[[rq|] sl] v]|]; cbn [reply_slot] in O;
    [| destruct (QInv_but_none b s (conj L (conj T O))); split; assumption
     | exact (QInv_but_none b s (conj L (conj T O)))].
  assert (Lost : (forall y f, nth_error (tasks s) rq = Some y -> tfr y = Some f -> False) -> QInv b s).
  { intros No. split; [exact L | exact T |]. intros rt x f j E F N.
    destruct (O rt x f j E F N) as [X|X]; [|exact X]. injection X as <- <-. destruct (No x f E F). }
  destruct (nth_error (tasks s) rq) as [y|] eqn:EY; [|apply Lost; congruence].
  destruct (tfr y) as [fy|] eqn:FY; [|apply Lost; congruence].
  set (y' := tset_tfr y (Some (fset_fwait fy (lupd (fwait fy) sl (Some v))))).
  assert (C : forall z, In z (carriers s) -> In z (carriers (set_task s rq y'))).
  { intros z Hz. destruct (carriers_upd s (set_task s rq y') rq y y' EY eq_refl z) as [C1 C2].
    destruct (C1 Hz) as [H|H]; [apply C2; rewrite (cfr_some y fy FY) in H|]; exact H. }
  split; [exact L | |].
  - intros t0 x0 E0. apply nth_error_lupd_inv in E0. destruct E0 as [[-> ->]|[_ E0]]; [|exact (T t0 x0 E0)].
    apply (TaskOK_frame b rq y); [exact (T rq y EY) | reflexivity ..|].
    intros f' E. injection E as <-. exists fy, []. cbn. do 2 (split; [auto|]). split; [auto|].
    intros _ ->. destruct sl; reflexivity.
  - intros rt x f j E F N. apply nth_error_lupd_inv in E.
    assert (Old : forall x0 f0, nth_error (tasks s) rt = Some x0 -> tfr x0 = Some f0 ->
              nth_error (fwait f0) j = Some None -> (rt, j) <> (rq, sl) ->
              exists m, In (rt, j, m) (carriers (set_task s rq y')) /\ rt < m).
    { intros x0 f0 E0 F0 N0 NE. destruct (O rt x0 f0 j E0 F0 N0) as [X|(m & Hin & Hlt)]; [congruence|].
      exists m. split; [exact (C _ Hin) | exact Hlt]. }
    destruct E as [[-> ->]|[NE E]]; [|apply (Old x f E F N); congruence].
    injection F as <-. apply nth_error_lupd_inv in N. destruct N as [[_ N]|[NE N]]; [discriminate N|].
    apply (Old y fy EY FY N). congruence.
Qed.

Lemma conn_deliveries_in cs v d :
  In d (conn_deliveries cs v) ->
  cdel d = [] /\ forall m g, dtgt d = DModel m g -> exists c i, In c cs /\ ctgt c = TgtModel m i.
Proof.
  unfold conn_deliveries. intros H. apply in_flat_map in H. destruct H as [c [Hc H]].
  destruct (keep_ok (ckeep c) v); [|destruct H].
  destruct (ctgt c) as [m i|sk] eqn:E; destruct H as [<-|[]]; (split; [reflexivity|]); cbn; intros m0 g0 X.
  - injection X as <- <-. exists c, i. split; assumption.
  - discriminate X.
Qed.

Lemma query_deliveries_nth qs t v : forall slot j d,
  nth_error (query_deliveries t slot qs v) j = Some d ->
  exists q g, In q qs /\ dtgt d = DModel (qmodel q) g /\ mkd g = KRequest (Some t) (slot + j) (qrep q) (qradd q).
Proof.
  induction qs as [|q r IH]; intros slot j d H; cbn [query_deliveries] in H; [destruct j; discriminate|].
  destruct (keep_ok (qkeep q) v).
  - destruct j as [|j]; cbn in H.
    + injection H as <-. eexists q, _. split; [left; reflexivity|]. cbn. rewrite Nat.add_0_r. split; reflexivity.
    + destruct (IH _ _ _ H) as (q0 & g & I & D & K). exists q0, g. split; [right; exact I|]. split; [exact D|].
      rewrite K. f_equal. lia.
  - destruct (IH _ _ _ H) as (q0 & g & I & D & K). exists q0, g. split; [right; exact I|]. split; assumption.
Qed.

Lemma op_deliveries_range b t om v o d m g :
  bench_valid b ->
  match om with Some _ => op_plain o | None => op_target_ok (length (bmodels b)) o end = true ->
  In d (op_deliveries b t om v o) -> dtgt d = DModel m g -> m < length (bmodels b).
Proof.
  intros BV OK Hd Hg. unfold op_deliveries in Hd.
  destruct o; destruct om as [mm|]; try discriminate OK; try (destruct Hd; fail).
  - destruct (nth_error (bmodels b) mm) as [sp|] eqn:ES; [|destruct Hd].
    destruct (proj2 (conn_deliveries_in _ _ _ Hd) m g Hg) as (c & i & Ic & Tc).
    exact (bv_out b BV mm sp port c m i ES Ic Tc).
  - destruct (nth_error (bmodels b) mm) as [sp|] eqn:ES; [|destruct Hd].
    apply In_nth_error in Hd. destruct Hd as [j Hj].
    destruct (query_deliveries_nth _ _ _ _ _ _ Hj) as (q & g0 & Iq & Dq & _).
    rewrite Dq in Hg. injection Hg as <- _. exact (proj2 (bv_req b BV mm sp port q ES Iq)).
  - destruct Hd as [<-|[]]. injection Hg as <- _. apply Nat.ltb_lt, OK.
  - destruct Hd as [<-|[]]. injection Hg as <- _. apply Nat.ltb_lt, OK.
  - destruct (proj2 (conn_deliveries_in _ _ _ Hd) m g Hg) as (c & i & Ic & Tc).
    exact (bv_src b BV src c m i Ic Tc).
Qed.

Lemma query_carriers b t v port e j d :
  bench_valid b -> nth_error (op_deliveries b t (Some t) v (OQuery port e)) j = Some d ->
  exists m, In (t, j, m) (cdel d) /\ t < m.
Proof.
  intros BV H. cbn in H. destruct (nth_error (bmodels b) t) as [sp|] eqn:ES; [|destruct j; discriminate H].
  destruct (query_deliveries_nth _ _ _ _ _ _ H) as (q & g & Iq & Dq & Kq).
  exists (qmodel q). split; [|exact (proj1 (bv_req b BV t sp port q ES Iq))].
  unfold cdel, creq. rewrite Dq, Kq. left. reflexivity.
Qed.

Lemma cserve_start x m sp g :
  tk x = TKModel m -> cserve x (empty_frame (msg_script sp g) (mval g) (msg_reply sp g)) = creq m g.
Proof. unfold cserve, creq, msg_reply. cbn. intros ->. destruct (mkd g) as [|[rt|]]; reflexivity. Qed.

Lemma no_slot_of_nil {A} j : nth_error (@nil (option A)) j <> Some None.
Proof. destruct j; discriminate. Qed.

Lemma step_start_QInv b s t s' :
  bench_valid b -> NInv s -> QInv b s -> step_start b s t = Some s' -> QInv b s'.
Proof.
  intros BV NI Q H. apply step_start_inv in H. destruct H as (x & m & sp & EX & TK & TF & _ & ES & H).
  destruct (bench_plain_scripts b m sp (bv_plain b BV) ES) as (_ & PI & PS).
  pose proof (q_task b s Q t x EX) as OK. pose proof (cfr_none x TF) as CX.
  destruct H as [[_ ->]|(_ & g & restq & fr & EB & H)].
  - eapply QInv_upd; [exact Q | exact EX | reflexivity | reflexivity | | |].
    + eapply TaskOK_start; [exact OK | exact TK | reflexivity | reflexivity | reflexivity | exact PI].
    + rewrite CX. exact (fun z H => H).
    + intros f' j E. injection E as <-. intros N. destruct (no_slot_of_nil j N).
  - cbv zeta in H.
    assert (NC : msg_cancelled s g = false)
      by (unfold msg_cancelled; destruct (mkd g); [apply NI | reflexivity]).
    rewrite NC in H. destruct H as [-> ->].
    destruct (cbox_lupd _ _ _ EB) as (rest & P & P').
    eapply QInv_upd; [exact Q | exact EX | reflexivity | apply lupd_length | | |].
    + eapply TaskOK_start; [exact OK | exact TK | reflexivity | reflexivity | reflexivity | exact (PS g)].
    + intros z. cbn [boxes add_log set_log set_task set_tasks set_inflight set_boxes].
      rewrite CX, P, (P' restq), cfr_tset, (cserve_start x m sp g TK). cbn [flat_map fpend empty_frame].
      rewrite !in_app_iff. tauto.
    + intros f' j E. injection E as <-. intros N. destruct (no_slot_of_nil j N).
Qed.

Lemma step_deliver_QInv b s t i s' :
  bench_valid b -> NInv s -> QInv b s -> step_deliver b s t i = Some s' -> QInv b s'.
Proof.
  intros BV NI Q H. apply step_deliver_inv in H. destruct H as (x & f & d & EX & TF & ED & H). cbv zeta in H.
  pose proof (ldel_perm _ _ _ ED) as PD.
  set (x' := tset_tfr x (Some (fset_fpend f (ldel (fpend f) i)))) in *.
  assert (OK : TaskOK b t x').
  { apply (TaskOK_frame b t x); [exact (q_task b s Q t x EX) | reflexivity ..|].
    intros f' E. injection E as <-. exists f, []. do 2 (split; [auto|]). split; [|auto].
    intros d0 m g Hd _. left. rewrite PD. right. exact Hd. }
  assert (CX : Permutation (cfr x) (cdel d ++ cfr x')).
  { unfold x'. rewrite (cfr_some x f TF), cfr_tset. cbn [fpend fset_fpend].
    rewrite PD at 1. cbn [flat_map]. rewrite <- app_assoc. reflexivity. }
  unfold cdel in CX. destruct (dtgt d) as [m g|sk v].
  - destruct H as (sp & q & ES & EB & H). destruct (bench_plain_scripts b m sp (bv_plain b BV) ES) as (PL & _).
    destruct H as [[PL' _]|(_ & _ & ->)]; [congruence|].
    destruct (cbox_lupd _ _ _ EB) as (rest & P & P').
    eapply QInv_upd; [exact Q | exact EX | reflexivity | apply lupd_length | exact OK | |].
    + intros z. cbn [boxes set_task set_tasks set_inflight set_boxes].
      rewrite CX, P, (P' (q ++ [g])), flat_map_app, !in_app_iff. cbn [flat_map]. rewrite app_nil_r. tauto.
    + intros f' j E. injection E as <-. left. exists f. auto.
  - subst s'. eapply QInv_upd; [exact Q | exact EX | reflexivity | reflexivity | exact OK | |].
    + intros z. rewrite CX. exact (fun H => H).
    + intros f' j E. injection E as <-. left. exists f. auto.
Qed.

Lemma op_step_QInv b s t x f o rest s' x' f' :
  bench_valid b -> QInv b s -> nth_error (tasks s) t = Some x -> tfr x = Some f -> fpend f = [] ->
  frest f = o :: rest -> op_step b s t x f o rest s' x' f' -> QInv b s'.
Proof.
  intros BV Q EX TF FP FR O.
  pose proof (os_tfr O) as TF'. pose proof (os_tk O) as TK'. pose proof (os_fpend O) as FP'.
  pose proof (os_fwait O) as FW'. pose proof (os_boxes O) as EB.
  pose proof (q_task b s Q t x EX) as OK. pose proof (TaskOK_head b t x f o rest OK TF FR) as HD.
  eapply QInv_upd; [exact Q | exact EX | exact (os_tasks O) | rewrite EB; reflexivity | | |].
  - apply (TaskOK_frame b t x x' OK TK' (os_tinit O) (fun _ _ => os_tdone O)).
    intros f0 E. rewrite TF' in E. injection E as <-. exists f, [o]. rewrite (os_frest O). do 2 (split; [auto|]). split.
    + intros d m g Hd Hg. right. rewrite FP' in Hd.
      eapply op_deliveries_range; [exact BV | | exact Hd | exact Hg].
      destruct (tk x); destruct HD as (-> & _ & HD); exact HD.
    + intros K _. rewrite K in HD. rewrite FW'. destruct o; try discriminate (proj1 (proj2 HD)); reflexivity.
  - intros z. rewrite EB, (cfr_some x f TF), (cfr_some x' f' TF'), FP, (cserve_same x x' f f' TK' (os_freply O)).
    cbn [flat_map app]. rewrite !in_app_iff. tauto.
  - intros f0 j E N. rewrite TF' in E. injection E as <-. right. rewrite (cfr_some x' f' TF'), FW' in *.
    destruct o; try destruct (no_slot_of_nil j N).
    rewrite nth_error_map in N. destruct (nth_error (fpend f') j) as [d|] eqn:Ed; [|discriminate N].
    destruct (tk x) as [m0|]; [|discriminate (proj1 (proj2 HD))]. destruct HD as (TM & _). rewrite FP', TM in Ed.
    destruct (query_carriers b t _ _ _ j d BV Ed) as (m & Hin & Hlt). exists m. split; [|exact Hlt].
    apply in_or_app. left. apply in_flat_map. exists d. split; [|exact Hin].
    rewrite FP', TM. exact (nth_error_In _ _ Ed).
Qed.

Lemma step_op_QInv b s t s' :
  bench_valid b -> NInv s -> QInv b s -> step_op b s t = Some s' -> QInv b s'.
Proof.
  intros BV NI Q H. apply step_op_inv in H. destruct H as (x & f & EX & TF & FP & H).
  pose proof (q_task b s Q t x EX) as OK.
  destruct H as [(_ & _ & H)|[(_ & _ & ->)|(_ & o & rest & FR & x' & f' & O)]].
  - (* all replies are in: the wait is over *)
    cbv zeta in H. set (x' := tset_tfr x (Some (fset_fwait f []))) in H.
    assert (E : tasks s' = lupd (tasks s) t x' /\ boxes s' = boxes s)
      by (destruct (task_model x); subst s'; auto).
    eapply QInv_upd; [exact Q | exact EX | apply E | rewrite (proj2 E); reflexivity | | |].
    + apply (TaskOK_frame b t x); [exact OK | reflexivity ..|].
      intros f0 E0. injection E0 as <-. exists f, []. cbn. auto 6.
    + intros z. rewrite (proj2 E), (cfr_some x f TF). exact (fun H => H).
    + intros f0 j E0. injection E0 as <-. intros N. destruct (no_slot_of_nil j N).
  - (* the script is over: the frame goes away and the reply, if any, is delivered *)
    destruct (finished_spec x) as (TF1 & TK1 & TI1 & TD1). apply deliver_reply_QInv.
    eapply QInv_upd_but; [exact Q | exact EX | reflexivity | reflexivity | | |].
    + apply (TaskOK_frame b t x _ OK TK1 TI1 TD1). rewrite TF1. discriminate.
    + intros rt j m. rewrite (cfr_some x f TF), (cfr_none _ TF1), FP. cbn [flat_map app].
      intros Hin. apply in_app_or in Hin.
      destruct Hin as [Hin|Hin]; [right; apply (in_cserve _ _ _ _ _ Hin) | left; exact Hin].
    + rewrite TF1. discriminate.
  - exact (op_step_QInv b s t x f o rest s' x' f' BV Q EX TF FP FR O).
Qed.

Theorem net_step_QInv b s l s' :
  bench_valid b -> NInv s -> QInv b s -> net_step b s l = Some s' -> QInv b s'.
Proof.
  intros BV NI Q. unfold net_step. destruct (err s); [discriminate|]. destruct l as [t|t|t i].
  - apply step_start_QInv; assumption.
  - apply step_op_QInv; assumption.
  - apply step_deliver_QInv; assumption.
Qed.

Lemma net_run_end b (BV : bench_valid b) fuel : forall ch s nd s' nd',
  NInv s -> QInv b s -> net_run b fuel ch s nd = Some (s', nd') ->
  NInv s' /\ QInv b s' /\ net_enabled b s' = [].
Proof.
  intros ch s nd s' nd' NI Q H.
  apply (net_run_steps b (fun s s' => NInv s /\ QInv b s -> NInv s' /\ QInv b s')) in H.
  - destruct H as [H E]. destruct (H (conj NI Q)). auto.
  - auto.
  - intros s0 l s1 s2 ES IH [NI0 Q0]. apply IH. split.
    + exact (proj1 (net_step_sim b s0 l s1 (bv_plain b BV) NI0 ES)).
    + exact (net_step_QInv b s0 l s1 BV NI0 Q0 ES).
Qed.

(* C04, first sentence, on the net model: when a run ends without failure and with every mailbox empty -
   the condition under which the call returns Ok - every message has been processed and no handler is left
   half-way: the pool is empty. *)
Theorem net_run_ok_pool_empty b fuel ch s nd s' nd' :
  bench_valid b -> NInv s -> QInv b s -> net_run b fuel ch s nd = Some (s', nd') ->
  err s' = None -> (forall m q, nth_error (boxes s') m = Some q -> q = []) ->
  pool_of b s' = [].
Proof.
  intros BV NI Q H HE HB. destruct (net_run_end b BV _ _ _ _ _ _ NI Q H) as (NI' & Q' & EN).
  exact (quiescent_pool_empty b s' BV NI' Q' EN HE HB).
Qed.

(* ... hence schedule independence without a hypothesis on the final pools: two runs from one state, under any
   two choice lists, that both return Ok have logged the same multiset of invocations and performed the
   same multiset of sink writes *)
Theorem net_confluent_ok b s f1 ch1 nd1 s1 nd1' f2 ch2 nd2 s2 nd2' :
  bench_valid b -> NInv s -> QInv b s ->
  net_run b f1 ch1 s nd1 = Some (s1, nd1') -> net_run b f2 ch2 s nd2 = Some (s2, nd2') ->
  err s1 = None -> (forall m q, nth_error (boxes s1) m = Some q -> q = []) ->
  err s2 = None -> (forall m q, nth_error (boxes s2) m = Some q -> q = []) ->
  exists l1 l2 w1 w2,
    invs (log s1) = l1 ++ invs (log s) /\ invs (log s2) = l2 ++ invs (log s) /\ Permutation l1 l2 /\
    sinks s1 = fold_left sink_apply w1 (sinks s) /\ sinks s2 = fold_left sink_apply w2 (sinks s) /\
    Permutation w1 w2.
Proof.
  intros BV NI Q H1 H2 E1 B1 E2 B2.
  eapply net_confluent; [exact (bv_plain b BV) | exact NI | exact H1 | exact H2 | |].
  - exact (net_run_ok_pool_empty b _ _ _ _ _ _ BV NI Q H1 E1 B1).
  - exact (net_run_ok_pool_empty b _ _ _ _ _ _ BV NI Q H2 E2 B2).
Qed.


Lemma conns_ok_nth n ls port c m i :
  forallb (forallb (conn_ok n)) ls = true -> In c (nth port ls []) -> ctgt c = TgtModel m i -> m < n.
Proof.
  intros H Ic Tc. pose proof (forallb_nth _ ls [] port H eq_refl) as X.
  rewrite forallb_forall in X. specialize (X c Ic). unfold conn_ok in X. rewrite Tc in X. apply Nat.ltb_lt, X.
Qed.

Theorem bench_valid_check_sound b : bench_valid_check b = true -> bench_valid b.
Proof.
  unfold bench_valid_check. rewrite !andb_true_iff. intros [[HP HM] HS].
  assert (MV : forall m sp, nth_error (bmodels b) m = Some sp ->
            1 <= mcap sp /\ forallb (forallb (conn_ok (length (bmodels b)))) (mouts sp) = true /\
            forallb (forallb (qconn_ok (length (bmodels b)) m)) (mreqs sp) = true).
  { intros m sp E. pose proof (indexed_all_nth _ _ (fun _ _ _ => eq_refl) _ 0 m sp HM E) as X.
    unfold model_valid in X. rewrite !andb_true_iff, Nat.leb_le in X. tauto. }
  split.
  - exact HP.
  - intros m sp E. apply (MV m sp E).
  - intros m sp port c m' i E. apply conns_ok_nth, (MV m sp E).
  - intros src c m' i. apply conns_ok_nth, HS.
  - intros m sp port q E Iq. destruct (MV m sp E) as (_ & _ & X).
    pose proof (forallb_nth _ (mreqs sp) [] port X eq_refl) as Y.
    rewrite forallb_forall in Y. specialize (Y q Iq). unfold qconn_ok in Y.
    rewrite andb_true_iff, !Nat.ltb_lt in Y. exact Y.
Qed.

Lemma task_ok_check_sound b t x : task_ok_check b t x = true ->
  TaskOK b t x /\ forall f, tfr x = Some f -> fwait f = [].
Proof.
  unfold task_ok_check. intros H. apply andb_prop in H. destruct H as [TF TK]. split; [split|].
  - destruct (tk x).
    + rewrite !andb_true_iff, Nat.eqb_eq, Nat.ltb_lt, negb_true_iff in TK. destruct TK as (((T1 & T2) & T3) & T4).
      do 3 (split; [assumption|]). intros f Ef. rewrite Ef in T4. exact T4.
    + rewrite andb_true_iff, negb_true_iff in TK. destruct TK as [T1 T2]. split; [exact T1|].
      intros f Ef. rewrite Ef in T2, TF. apply andb_prop in T2, TF.
      destruct (fwait f); [tauto | discriminate (proj2 TF)].
  - intros f d m g Ef Id Dg. rewrite Ef in TF. apply andb_prop in TF. destruct TF as [TP _].
    rewrite forallb_forall in TP. specialize (TP d Id). unfold delivery_ok in TP. rewrite Dg in TP.
    apply Nat.ltb_lt, TP.
  - intros f Ef. rewrite Ef in TF. apply andb_prop in TF. destruct (fwait f); [reflexivity | discriminate (proj2 TF)].
Qed.

(* a state the check accepts awaits no reply at all *)
Theorem qinv_check_sound b s : qinv_check b s = true -> QInv b s.
Proof.
  unfold qinv_check. rewrite andb_true_iff, Nat.eqb_eq. intros [HL HT].
  assert (TC : forall t x, nth_error (tasks s) t = Some x ->
            TaskOK b t x /\ forall f, tfr x = Some f -> fwait f = []).
  { intros t x E. exact (task_ok_check_sound b t x (indexed_all_nth _ _ (fun _ _ _ => eq_refl) _ 0 t x HT E)). }
  split; [exact HL | intros t x E; apply (TC t x E) |].
  intros rt x f j E Ef Hn. rewrite (proj2 (TC rt x E) f Ef) in Hn. destruct (no_slot_of_nil j Hn).
Qed.

(* Non-vacuity: conf_bench is valid, conf_start satisfies QInv, and its run under the empty choice list
   ends without failure and with empty mailboxes. *)
Example quiescence_nonvacuous :
  bench_valid conf_bench /\ QInv conf_bench conf_start /\
  exists s1 nd1, net_run conf_bench 500 [] conf_start false = Some (s1, nd1) /\ err s1 = None /\
                 forallb (fun q => match q with [] => true | _ => false end) (boxes s1) = true.
Proof.
  split; [apply bench_valid_check_sound; vm_compute; reflexivity|].
  split; [apply qinv_check_sound; vm_compute; reflexivity|].
  eexists. eexists. split; [vm_compute; reflexivity|]. split; vm_compute; reflexivity.
Qed.
