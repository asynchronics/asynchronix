(* The bit layout of the task state word, proved against the constants that
   tools/gen_consts.py reads out of executor/task.rs on every run
   (gen/Consts.v): an edit of a constant in the source re-checks - and can
   break - these lemmas. *)
From Coq Require Import NArith.
Require Import NX.gen.Consts.
Local Open Scope N_scope.

Definition encode (wake refs : N) (closed polling : bool) : N :=
  wake * TASK_WAKE_INC + refs * TASK_REF_INC + (if closed then TASK_CLOSED else 0) + (if polling then TASK_POLLING else 0).

Lemma layout_flags : TASK_POLLING = 1 /\ TASK_CLOSED = 2 /\ TASK_REF_INC = 4 /\ TASK_WAKE_INC = 2 ^ 33.
Proof. vm_compute. repeat split; reflexivity. Qed.

Lemma layout_masks :
  TASK_REF_MASK = TASK_WAKE_INC - TASK_REF_INC /\ TASK_WAKE_MASK = 2 ^ 64 - TASK_WAKE_INC /\
  N.land TASK_REF_MASK TASK_WAKE_MASK = 0 /\ N.land TASK_REF_MASK (TASK_POLLING + TASK_CLOSED) = 0 /\
  N.land TASK_WAKE_MASK (TASK_POLLING + TASK_CLOSED) = 0 /\
  N.lor (N.lor TASK_REF_MASK TASK_WAKE_MASK) (TASK_POLLING + TASK_CLOSED) = 2 ^ 64 - 1.
Proof. vm_compute. repeat split; reflexivity. Qed.

Lemma layout_critical :
  TASK_REF_CRITICAL < TASK_REF_MASK /\ TASK_WAKE_CRITICAL < TASK_WAKE_MASK /\
  TASK_REF_CRITICAL + TASK_REF_INC * 2 ^ 29 <= TASK_REF_MASK.
Proof. vm_compute. repeat split; reflexivity || discriminate. Qed.

(* the initial states written by spawn / spawn_and_forget are the model's *)
Lemma layout_init_spawn : TASK_INIT_SPAWN = encode 1 2 false true.
Proof. vm_compute. reflexivity. Qed.
Lemma layout_init_forget : TASK_INIT_SPAWN_FORGET = encode 1 1 false true.
Proof. vm_compute. reflexivity. Qed.

