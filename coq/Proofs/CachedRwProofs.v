(* util/cached_rw_lock.rs: no cached epoch is ahead of the shared one, so a write is seen by the next
   synchronising access of every clone; scratchpad edits stay local. *)
Require Import NX.Base.Prelude NX.Base.ListX NX.Model.CachedRw.

(* a cache taken at the current epoch equals the shared value, unless it was
   used as a scratchpad since; epochs of caches never exceed the shared one *)
Definition crw_inv (s : crw) : Prop :=
  forall i v e, nth_error (clones s) i = Some (v, e) -> e <= shepoch s.

Lemma crw_inv_sync s i c v e w :
  crw_inv s -> nth_error (clones s) i = Some c -> sync s c = (v, e) ->
  crw_inv {| shval := shval s; shepoch := shepoch s; clones := lupd (clones s) i (w, e) |}.
Proof.
  intros HI E ES j v' e' Hj. cbn [clones shepoch] in *. apply nth_error_lupd_inv in Hj.
  destruct Hj as [(_ & Hj)|(_ & Hj)]; [|exact (HI j v' e' Hj)]. injection Hj as _ ->.
  destruct c as [cv ce]. specialize (HI i cv ce E). unfold sync in ES. destruct (Nat.eqb _ _); injection ES as _ <-; lia.
Qed.

Lemma crw_step_inv s o : crw_inv s -> crw_inv (fst (crw_step s o)).
Proof.
  intros HI. destruct o as [i|i x|i x|i]; cbn [crw_step fst]; unfold crw_clone, crw_write, crw_scratch, crw_read;
    (destruct (nth_error (clones s) i) as [c|] eqn:E; [|exact HI]).
  - intros j v e Hj. cbn [clones shepoch] in *. apply nth_error_snoc_inv in Hj.
    destruct Hj as [Hj|[_ <-]]; [exact (HI j v e Hj)|exact (HI i v e E)].
  - intros j v e Hj. cbn [clones shepoch] in *. specialize (HI j v e Hj). lia.
  - destruct (sync s c) as [v e] eqn:ES. exact (crw_inv_sync s i c v e _ HI E ES).
  - destruct (sync s c) as [v e] eqn:ES. exact (crw_inv_sync s i c v e _ HI E ES).
Qed.

(* After a write through ANY clone, the next synchronising access (read or
   write_scratchpad) through EVERY clone, including the writer, starts from
   the updated shared value. *)
Theorem write_reaches_every_clone s i x j c :
  crw_inv s -> nth_error (clones s) i <> None -> nth_error (clones s) j = Some c ->
  let s' := crw_write s i x in
  snd (crw_read s' j) = shval s ++ [x] /\
  forall y, snd (crw_scratch s' j y) = (shval s ++ [x]) ++ [y].
Proof.
  intros HI Hi Hj s'. unfold s', crw_write. destruct (nth_error (clones s) i); [|congruence].
  unfold crw_read, crw_scratch; cbn [clones shval shepoch]. rewrite Hj. destruct c as [v e].
  pose proof (HI j v e Hj) as L. unfold sync; cbn [shepoch shval snd].
  destruct (Nat.eqb_spec (S (shepoch s)) e) as [E|E]; [lia|]. cbn. auto.
Qed.

(* Scratchpad edits never reach the shared value nor any other clone. *)
Theorem scratch_is_local s i x :
  let s' := fst (crw_scratch s i x) in
  shval s' = shval s /\ shepoch s' = shepoch s /\
  forall j, j <> i -> nth_error (clones s') j = nth_error (clones s) j.
Proof.
  unfold crw_scratch. destruct (nth_error (clones s) i) as [c|]; [|cbn; auto].
  destruct (sync s c) as [v e]. cbn. repeat split; auto. intros j NE. apply nth_error_lupd_ne. auto.
Qed.

Lemma crw_exec_inv ops : forall s, crw_inv s -> crw_inv (crw_exec s ops).
Proof. induction ops as [|o r IH]; intros s HI; cbn; auto. apply IH, crw_step_inv; auto. Qed.

Lemma crw_new_inv v : crw_inv (crw_new v).
Proof. intros i w e H. destruct i as [|[|i]]; cbn in H; try discriminate. injection H as <- <-. cbn. lia. Qed.
