(* Trace-level initialisation invariant: in every state reachable by steps of a
   run, the task of model m has logged exactly one init once its flag is
   cleared, and no init and no handler entry while the flag is still set. *)
Require Import NX.Base.Prelude NX.Base.ListX NX.Model.Sim.
Require Import NX.Proofs.SimBasic NX.Proofs.NetSteps NX.Proofs.NetProofs.

Definition init_inv (s : state) : Prop :=
  forall t x, nth_error (tasks s) t = Some x ->
    match tk x with
    | TKModel m =>
        m = t /\
        (tinit x = true -> inits m (log s) = 0 /\ handled m (log s) = 0) /\
        (tinit x = false -> inits m (log s) = 1)
    | TKAction => True
    end.

Lemma counts_app m added l :
  forallb (fun e => negb (is_init_entry e) && negb (is_handler_entry e)) added = true ->
  inits m (added ++ l) = inits m l /\ handled m (added ++ l) = handled m l.
Proof.
  induction added as [|e r IH]; intros H; cbn [app]; [auto|].
  cbn [forallb] in H. apply andb_true_iff in H. destruct H as [He Hr]. destruct (IH Hr) as [A B].
  destruct e; cbn in He; try discriminate; cbn [inits handled]; auto.
Qed.

Lemma init_inv_sig s s' :
  init_inv s -> (forall t', option_map tsig (nth_error (tasks s') t') = option_map tsig (nth_error (tasks s) t')) ->
  (forall m, inits m (log s') = inits m (log s) /\ handled m (log s') = handled m (log s)) -> init_inv s'.
Proof.
  intros HI HS HL t x' Hx'. specialize (HS t). rewrite Hx' in HS. cbn in HS.
  destruct (nth_error (tasks s) t) as [x|] eqn:Ex; [|discriminate]. cbn in HS. injection HS as E1 E2.
  specialize (HI t x Ex). rewrite E1. destruct (tk x) as [m|]; [|exact I].
  destruct HI as (A & B & C). destruct (HL m) as [L1 L2]. rewrite E2, L1, L2. auto.
Qed.

Lemma entry_of_other_model e t t' l :
  entry_model e = Some t -> t' <> t -> inits t' (e :: l) = inits t' l /\ handled t' (e :: l) = handled t' l.
Proof.
  intros M NE. destruct e; cbn in M; try discriminate M; cbn [inits handled]; auto; injection M as ->;
    destruct (Nat.eqb_spec t' t); try contradiction; auto.
Qed.

Lemma init_inv_start s s' t x x' :
  init_inv s -> nth_error (tasks s) t = Some x -> tasks s' = lupd (tasks s) t x' -> tk x' = TKModel t ->
  (log s' = log s \/ exists e, log s' = e :: log s /\ entry_model e = Some t) ->
  tinit x' = false -> inits t (log s') = 1 -> init_inv s'.
Proof.
  intros HI EX ET K EL Ti N t' y Hy. rewrite ET in Hy. apply nth_error_lupd_inv in Hy.
  destruct Hy as [[-> ->]|[NE Hy]].
  - rewrite K, Ti. split; [reflexivity|]. split; [discriminate|auto].
  - specialize (HI t' y Hy). destruct (tk y) as [m'|]; [|exact I]. destruct HI as (-> & B & C).
    assert (X : inits t' (log s') = inits t' (log s) /\ handled t' (log s') = handled t' (log s)).
    { destruct EL as [->|(e & -> & M)]; [auto|apply (entry_of_other_model e t); assumption]. }
    destruct X as [-> ->]. auto.
Qed.

Lemma net_step_init_inv b s l s' : init_inv s -> net_step b s l = Some s' -> init_inv s'.
Proof.
  intros HI H. destruct (match l with LStart _ => true | _ => false end) eqn:IsStart.
  2:{ (* not a start: every task keeps its kind and init flag, the log gains no init or handler entry *)
      assert (NS : forall t, l <> LStart t) by (intros t ->; discriminate).
      destruct (other_steps_log _ _ _ _ H NS) as [added [EL EA]].
      eapply init_inv_sig; [exact HI| |intros m; rewrite EL; apply counts_app; exact EA].
      unfold net_step in H. destruct (err s); [discriminate|].
      destruct l; [discriminate|apply step_op_keeps in H|apply step_deliver_keeps in H]; apply H. }
  destruct l as [t| |]; try discriminate. unfold net_step in H. destruct (err s); [discriminate|].
  apply step_start_inv in H. destruct H as (x & m & sp & Et & Ek & _ & _ & _ & H).
  pose proof (HI t x Et) as HT. rewrite Ek in HT. destruct HT as (-> & HT1 & HT2).
  destruct H as [[Ei ->]|(Ei & g & rest & fr & _ & H)].
  - eapply init_inv_start; [exact HI|exact Et|reflexivity|exact Ek|right; eexists; split; reflexivity|reflexivity|].
    cbn [log add_log set_log set_task set_tasks inits]. rewrite Nat.eqb_refl, (proj1 (HT1 Ei)). reflexivity.
  - cbv zeta in H. destruct (msg_cancelled s g); destruct H as [_ ->].
    + eapply init_inv_start; [exact HI|exact Et|reflexivity|exact Ek|left; reflexivity|exact Ei|exact (HT2 Ei)].
    + destruct (msg_entry_kind t g (now s)) as (_ & NI & EM).
      eapply init_inv_start;
        [exact HI|exact Et|reflexivity|exact Ek|right; eexists; split; [reflexivity|exact EM]|exact Ei|].
      cbn [log add_log set_log set_task set_tasks set_inflight set_boxes].
      destruct (msg_entry t g (now s)); try discriminate NI; exact (HT2 Ei).
Qed.

Lemma net_run_init_inv b fuel : forall ch s nd s' nd',
  init_inv s -> net_run b fuel ch s nd = Some (s', nd') -> init_inv s'.
Proof. apply (net_run_invariant b init_inv). intros s l s'. apply net_step_init_inv. Qed.

Lemma init_tasks_nth l : forall st t x, nth_error (init_tasks st l) t = Some x -> tk x = TKModel (st + t) /\ tinit x = true.
Proof.
  induction l as [|sp r IH]; intros st t x H; [destruct t; discriminate|].
  destruct t as [|t]; cbn in H.
  - injection H as <-. cbn. rewrite Nat.add_0_r. auto.
  - destruct (IH (S st) t x H) as [A B]. split; auto. rewrite A. f_equal. lia.
Qed.

Lemma init_state_init_inv b l : (forall m, inits m l = 0 /\ handled m l = 0) -> init_inv (set_log (init_state b) l).
Proof.
  intros HL t x H. cbn [tasks set_log init_state] in H. destruct (init_tasks_nth _ _ _ _ H) as [A B]. rewrite A. cbn.
  split; [reflexivity|]. split; [intros _; apply HL|rewrite B; discriminate].
Qed.

Lemma quiescent_all_initialised b s t x m sp :
  net_enabled b s = [] -> err s = None ->
  nth_error (tasks s) t = Some x -> tk x = TKModel m -> tdone x = false -> tfr x = None ->
  nth_error (bmodels b) m = Some sp -> tinit x = false.
Proof.
  intros HQ HE Ht Hk Hd Hf Hs. destruct (tinit x) eqn:Ei; [|reflexivity]. exfalso.
  pose proof (quiescent_no_step b s (LStart t) HQ) as N. unfold net_step in N.
  rewrite HE, (start_runs_init b s t x m sp) in N by assumption. discriminate N.
Qed.
