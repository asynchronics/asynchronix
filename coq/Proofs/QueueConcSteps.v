(* Every step of the concurrent queue model preserves the invariant CInv. *)
Require Import NX.Base.Prelude NX.Base.ListX NX.Model.QueueConc NX.Proofs.QueueConcInv.

Local Arguments CInv {V}. Local Arguments prod_ok {V}. Local Arguments slot_ok {V}. Local Arguments con_ok {V}.
Local Arguments published_ok {V}. Local Arguments rel {V}. Local Arguments taken {V}. Local Arguments in_flight {V}.
Local Arguments in_win {V}. Local Arguments wrote {V}.

Section Steps.
  Variable V : Type.
  Notation cstate := (cstate V).
  Notation prod := (prod V).

  Ltac proj := cbn [cap enq closed deq slots prods con log popped cerr upd_glob set_prod set_con
                    ppc ppos pclo pst pvals pout ptix mkprod cpc cdeq cst cleft cout mkcons].

  Lemma in_flight_pc (p : prod) : in_flight p <-> (ppc p = 3 \/ ppc p = 4).
  Proof. reflexivity. Qed.

  Lemma not_in_flight_pc (p : prod) : ppc p <= 2 -> in_flight p -> False.
  Proof. intros H [E|E]; lia. Qed.

  Lemma prod_ok_frame (s s' : cstate) q :
    prod_ok s q ->
    enq s <= enq s' ->
    (forall n v, nth_error (log s) n = Some v -> nth_error (log s') n = Some v) ->
    (forall x, fst (slot_at s x) <= fst (slot_at s' x)) ->
    (in_flight q -> deq s' <= ppos q /\ slot_at s' (ppos q) = slot_at s (ppos q)) ->
    prod_ok s' q.
  Proof.
    intros (H1 & H2 & H3 & H4 & H5 & H6 & H7) He Hl Hs Hf.
    split; [exact H1|]. split; [exact H2|]. split; [intros Hp; specialize (H3 Hp); lia|].
    split; [intros Hp; destruct (H4 Hp) as [A B]; split; [exact A|specialize (Hs (ppos q)); lia]|].
    split; [|split; [intros n v Hin; apply Hl; eapply H6; eauto|exact H7]].
    intros Hfl. destruct (H5 Hfl) as (A & B & C & D & (v & rest & E1 & E2 & E3 & E4)).
    destruct (Hf Hfl) as (F2 & F3). rewrite F3. pose proof (rel_le_deq V s').
    split; [lia|]. split; [exact F2|]. split; [exact C|]. split; [exact D|].
    exists v, rest. split; [exact E1|]. split; [apply Hl; exact E2|]. split; assumption.
  Qed.

  Lemma uniq_set_prod (s s' : cstate) i p' :
    CInv s -> prods s' = lupd (prods s) i p' ->
    (in_flight p' -> forall j q, nth_error (prods s) j = Some q -> j <> i -> in_flight q -> ppos q <> ppos p') ->
    forall j k q r, nth_error (prods s') j = Some q -> nth_error (prods s') k = Some r ->
      j <> k -> in_flight q -> in_flight r -> ppos q <> ppos r.
  Proof.
    intros HI -> Hp' j k q r Hj Hk Hne Fq Fr.
    apply nth_error_lupd_inv in Hj. apply nth_error_lupd_inv in Hk.
    destruct Hj as [[-> ->]|[Hj1 Hj]], Hk as [[-> ->]|[Hk1 Hk]].
    - congruence.
    - apply not_eq_sym. exact (Hp' Fq k r Hk Hk1 Fr).
    - exact (Hp' Fr j q Hj Hj1 Fq).
    - exact (ci_uniq V s HI j k q r Hj Hk Hne Fq Fr).
  Qed.

  Lemma cinv_set_prod_idle (s : cstate) i p p' :
    CInv s -> nth_error (prods s) i = Some p -> ppc p' <= 2 -> ptix p' = ptix p ->
    (pvals p' = [] -> ppc p' = 0) -> (1 <= ppc p' -> ppos p' <= enq s) ->
    (ppc p' = 2 -> pclo p' = false /\ pst p' <= fst (slot_at s (ppos p'))) ->
    CInv (set_prod s i p').
  Proof.
    intros HI Hi Hpc Et H2 H3 H4.
    destruct (ci_prod V s HI i p Hi) as (_ & _ & _ & _ & _ & P6 & P7).
    constructor; try apply HI.
    - intros j q Hj. apply nth_error_lupd_inv in Hj. destruct Hj as [[-> ->]|[Hne Hj]]; [|exact (ci_prod V s HI j q Hj)].
      unfold prod_ok. rewrite Et.
      split; [lia|]. split; [exact H2|]. split; [exact H3|]. split; [exact H4|].
      split; [intros F; destruct (not_in_flight_pc p' Hpc F)|split; [exact P6|exact P7]].
    - apply (uniq_set_prod s (set_prod s i p') i p' HI eq_refl). intros F. destruct (not_in_flight_pc p' Hpc F).
  Qed.

  (* the successful compare-exchange: ticket enq is claimed *)
  Lemma cas_success (s : cstate) i p v rest :
    CInv s -> nth_error (prods s) i = Some p -> ppc p = 2 -> pvals p = v :: rest ->
    pst p = 2 * ppos p -> enq s = ppos p ->
    CInv (set_prod (upd_glob s (S (enq s)) (closed s) (deq s) (slots s) (log s ++ [v]) (popped s) (cerr s))
                   i (mkprod 3 (ppos p) false (pst p) (v :: rest) (pout p) ((ppos p, v) :: ptix p))).
  Proof.
    intros HI Hi Hpc Hv Hst He.
    pose proof (ci_cap V s HI) as C1. pose proof (ci_log V s HI) as C3. pose proof (ci_deq V s HI) as C5.
    pose proof (ci_full V s HI) as C6. pose proof (ci_slots V s HI) as C7. pose proof (ci_prod V s HI) as C8.
    destruct (C8 i p Hi) as (P1 & P2 & P3 & P4 & P5 & P6 & P7). destruct (P4 Hpc) as [Pclo Pst].
    pose proof (rel_le_deq V s) as Hrd.
    (* the queue is not full: otherwise the slot of ticket enq still carries the previous lap *)
    assert (Hroom : enq s < rel s + cap s).
    { destruct (Nat.eq_dec (enq s) (rel s + cap s)) as [Efull|]; [|lia]. exfalso.
      rewrite <- He, Efull, slot_at_lap in Pst by exact C1.
      destruct (C7 (rel s) ltac:(lia)) as [Hlt _]. destruct (Hlt ltac:(lia)) as [[E _]|E]; lia. }
    assert (Hslot : slot_at s (enq s) = (2 * enq s, CVac)).
    { destruct (C7 (enq s) ltac:(lia)) as [_ Hge]. apply Hge. lia. }
    assert (Hlog : forall n x, nth_error (log s) n = Some x -> nth_error (log s ++ [v]) n = Some x).
    { intros n x. apply nth_error_app_stable. }
    assert (Hnew : nth_error (log s ++ [v]) (enq s) = Some v).
    { rewrite nth_error_app2, C3, Nat.sub_diag by lia. reflexivity. }
    constructor.
    - exact C1.
    - exact (ci_len V s HI).
    - proj. rewrite app_length. cbn [length]. lia.
    - exact (ci_err V s HI).
    - proj. lia.
    - change (S (enq s) <= rel s + cap s). lia.
    - intros m Hm. destruct (Nat.eq_dec m (enq s)) as [->|Hne].
      + split; [intros _; right; exact (f_equal fst Hslot)|intros Hc; cbn in Hc; lia].
      + apply (slot_ok_ext V s _ m); [proj; lia|proj; lia|reflexivity|exact Hlog|reflexivity|reflexivity|exact (C7 m Hm)].
    - intros j q Hj. apply nth_error_lupd_inv in Hj. destruct Hj as [[-> ->]|[Hne Hj]].
      + (* the claiming producer *)
        unfold prod_ok. proj. split; [lia|]. split; [discriminate|]. split; [intros _; lia|].
        split; [intros Hc; discriminate|]. split; [|split].
        * intros _. change (slot_at _ (ppos p)) with (slot_at s (ppos p)). change (rel _) with (rel s).
          rewrite <- He, Hslot. cbn [fst snd]. repeat (split; [lia|]).
          exists v, rest. split; [reflexivity|]. split; [exact Hnew|split; [reflexivity|discriminate]].
        * intros n x [Hin|Hin]; [injection Hin as <- <-; rewrite <- He; exact Hnew|].
          apply Hlog. eapply P6; eauto.
        * cbn [map fst sdesc]. split; [|exact P7].
          destruct (ptix p) as [|[n x] r] eqn:Et; [exact I|]. cbn [map fst].
          assert (Hn : nth_error (log s) n = Some x) by (apply (P6 n x); left; reflexivity).
          apply nth_error_some_lt in Hn. lia.
      + (* the others *)
        apply (prod_ok_frame s _ q (C8 j q Hj)); [proj; lia|exact Hlog|intros x; apply Nat.le_refl|].
        intros Fq. destruct (in_flight_facts V s j q HI Hj Fq) as (_ & D & _). split; [exact (proj1 D)|reflexivity].
    - eapply uniq_set_prod; [exact HI|reflexivity|].
      intros _ j q Hj Hne Fq. destruct (in_flight_facts V s j q HI Hj Fq) as (_ & D & _). proj. lia.
    - destruct (ci_con V s HI) as (K1 & K2 & K3 & K4). split; [exact K1|]. split; [exact K2|]. split; [|exact K4].
      intros Hc. destruct (K3 Hc) as [E|(E1 & E2 & E3)]; [left; exact E|right].
      split; [exact E1|]. split; [exact E2|]. proj. lia.
    - change (popped s = firstn (taken s) (log s ++ [v])). pose proof (taken_le_deq V s).
      rewrite firstn_app. replace (taken s - length (log s)) with 0 by lia.
      cbn [firstn]. rewrite app_nil_r. exact (ci_popped V s HI).
  Qed.

  (* The slot of a live ticket n is overwritten and its stamp does not decrease: either the window stays and n
     keeps its slot, or n is the oldest live ticket and hands the slot to n + cap.  The remaining premises speak
     of the new state only. *)
  Lemma cinv_write_slot (s s' : cstate) n x :
    CInv s -> wrote s s' n x -> in_win s n -> fst (slot_at s n) <= fst x -> cerr s' = 0 ->
    (rel s' = rel s /\ slot_ok s' n) \/ (n = rel s /\ rel s' = S (rel s) /\ slot_ok s' (n + cap s)) ->
    cpc (con s') = cpc (con s) \/ (3 <= cpc (con s) /\ n = rel s) ->
    (forall j q, nth_error (prods s') j = Some q ->
       prod_ok s' q \/ (nth_error (prods s) j = Some q /\ (in_flight q -> ppos q <> n))) ->
    (forall i j p q, nth_error (prods s') i = Some p -> nth_error (prods s') j = Some q ->
       i <> j -> in_flight p -> in_flight q -> ppos p <> ppos q) ->
    con_ok s' -> popped s' = firstn (taken s') (log s') -> CInv s'.
  Proof.
    intros HI Hw Hn Hx Herr Hslot Hpc Hprods Huniq Hcon Hpop.
    pose proof Hw as (Ec & Ee & Ed & El & Es).
    assert (Hl : forall k v, nth_error (log s) k = Some v -> nth_error (log s') k = Some v) by (rewrite El; auto).
    constructor.
    - rewrite Ec. exact (ci_cap V s HI).
    - rewrite Es, Ec. unfold set_slot. rewrite lupd_length. exact (ci_len V s HI).
    - rewrite El, Ee. exact (ci_log V s HI).
    - exact Herr.
    - rewrite Ed, Ee. exact (ci_deq V s HI).
    - rewrite Ee, Ec. pose proof (ci_full V s HI). destruct Hslot as [[Er _]|(_ & Er & _)]; lia.
    - intros m Hm. unfold in_win in Hm, Hn. rewrite Ec in Hm.
      assert (Hcases : slot_ok s' m \/ (in_win s m /\ m <> n)).
      { unfold in_win. destruct Hslot as [[Er Hs]|(En & Er & Hs)]; rewrite Er in Hm.
        - destruct (Nat.eq_dec m n) as [->|Hne]; [left; exact Hs|right; split; [exact Hm|exact Hne]].
        - destruct (Nat.eq_dec m (n + cap s)) as [->|Hne]; [left; exact Hs|right; lia]. }
      destruct Hcases as [H|[Hm' Hne]]; [exact H|].
      apply (slot_ok_ext V s s' m); [lia|lia|exact Ed|exact Hl| | |exact (ci_slots V s HI m Hm')].
      + rewrite (slot_at_wrote_win V s s' n x m HI Hw Hn Hm'). destruct (Nat.eqb_spec m n); [contradiction|reflexivity].
      + intros L. destruct Hpc as [E|[H3 En]]; [exact E|]. exfalso.
        unfold in_win in Hm'. rewrite (rel_high V s H3) in *. lia.
    - intros j q Hj. destruct (Hprods j q Hj) as [H|[Hj' Hq]]; [exact H|].
      apply (prod_ok_frame s s' q (ci_prod V s HI j q Hj')); [lia|exact Hl| |].
      + intros y. exact (stamp_wrote_mono V s s' n x y HI Hw Hx).
      + intros Fq. destruct (in_flight_facts V s j q HI Hj' Fq) as (W & D & _). split; [lia|].
        rewrite (slot_at_wrote_win V s s' n x _ HI Hw Hn W).
        destruct (Nat.eqb_spec (ppos q) n) as [E|_]; [destruct (Hq Fq E)|reflexivity].
    - exact Huniq.
    - exact Hcon.
    - exact Hpop.
  Qed.

  Lemma con_ok_wrote (s s' : cstate) n x :
    CInv s -> wrote s s' n x -> in_win s n -> fst (slot_at s n) = 2 * n -> con s' = con s -> con_ok s'.
  Proof.
    intros HI Hw Hn En Ec. pose proof Hw as (_ & Ee & Ed & _). destruct (ci_con V s HI) as (K1 & K2 & K3 & K4).
    pose proof (ci_cap V s HI) as Hcap.
    assert (Hkeep : forall m, in_win s m -> fst (slot_at s m) = 2 * m + 1 -> fst (slot_at s' m) = 2 * m + 1).
    { intros m Hm E. rewrite (slot_at_wrote_win V s s' n x m HI Hw Hn Hm).
      destruct (Nat.eqb_spec m n) as [->|_]; [lia|exact E]. }
    unfold con_ok. rewrite Ec, Ee, Ed. split; [exact K1|]. split; [exact K2|]. split.
    - intros Hc. destruct (K3 Hc) as [E|(E1 & E2 & E3)]; [left; exact E|right].
      split; [exact E1|]. split; [|exact E3]. apply Hkeep; [|exact E2].
      unfold in_win. rewrite (rel_low V s) by lia. lia.
    - intros Hc. destruct (K4 Hc) as (E1 & E2 & E3). split; [exact E1|]. split; [exact E2|].
      apply Hkeep; [|exact E3]. unfold in_win. rewrite (rel_high V s Hc). lia.
  Qed.

  Lemma prod_step_inv (s s' : cstate) i p b :
    CInv s -> nth_error (prods s) i = Some p -> prod_step s i p b = Some s' -> CInv s'.
  Proof.
    intros HI Hi Hstep. pose proof (ci_prod V s HI i p Hi) as (P1 & P2 & P3 & P4 & P5 & P6 & P7).
    unfold prod_step in Hstep. destruct (pvals p) as [|v rest] eqn:Hv; [discriminate|].
    (* the two ways back to the start of a push: reload enqueue_pos, or give up on this message *)
    assert (Hreload : CInv (set_prod s i (mkprod 1 (enq s) (closed s) (pst p) (v :: rest) (pout p) (ptix p)))).
    { apply (cinv_set_prod_idle s i p _ HI Hi); proj; [lia|reflexivity|discriminate|intros _; apply Nat.le_refl|discriminate]. }
    assert (Hdrop : forall r, CInv (set_prod s i (mkprod 0 (ppos p) (pclo p) (pst p) rest (r :: pout p) (ptix p)))).
    { intros r. apply (cinv_set_prod_idle s i p _ HI Hi); proj; [lia|reflexivity|reflexivity|intros Hc; lia|discriminate]. }
    destruct (ppc p) as [|[|[|[|[|n]]]]] eqn:Hpc; try discriminate.
    - (* load enqueue_pos *)
      injection Hstep as <-. exact Hreload.
    - destruct (pclo p) eqn:Hclo; injection Hstep as <-.
      + (* closed: the push fails *)
        exact (Hdrop _).
      + (* load the stamp of the slot *)
        apply (cinv_set_prod_idle s i p _ HI Hi); proj;
          [lia|reflexivity|discriminate|intros _; apply P3; lia|intros _; split; [reflexivity|apply Nat.le_refl]].
    - destruct (Nat.eqb_spec (pst p) (2 * ppos p)) as [Est|Est].
      + destruct (negb b && negb (closed s) && Nat.eqb (enq s) (ppos p)) eqn:Hcas; injection Hstep as <-.
        * (* compare-exchange succeeded *)
          apply andb_true_iff in Hcas. destruct Hcas as [_ He]. apply Nat.eqb_eq in He.
          exact (cas_success s i p v rest HI Hi Hpc Hv Est He).
        * (* compare-exchange failed: retry with the value found *)
          exact Hreload.
      + destruct (Nat.ltb (pst p) (2 * ppos p)); injection Hstep as <-.
        * (* stamp behind: Full *)
          exact (Hdrop _).
        * (* stamp ahead: reload enqueue_pos *)
          exact Hreload.
    - (* write the message into the claimed cell *)
      destruct (P5 (or_introl Hpc)) as (W & Dq & Est & Efst & (v' & rest' & Ev & Elog & Ec3 & _)).
      injection Ev as <- <-. specialize (Ec3 eq_refl).
      destruct (in_flight_facts V s i p HI Hi (or_introl Hpc)) as (Hwin & _).
      destruct (slot_at s (ppos p)) as [st c] eqn:Eslot. cbn [fst snd] in Efst, Ec3. subst c. injection Hstep as <-.
      match goal with |- CInv ?x => set (s1 := x) end.
      assert (Hw : wrote s s1 (ppos p) (st, CPop v)) by (repeat split).
      pose proof (slot_at_wrote_same V s s1 _ _ HI Hw Hwin) as Hat.
      apply (cinv_write_slot s s1 (ppos p) (st, CPop v) HI Hw Hwin).
      + rewrite Eslot. apply Nat.le_refl.
      + unfold s1. proj. rewrite (ci_err V s HI). reflexivity.
      + left. split; [reflexivity|].
        split; [intros _; right; rewrite Hat; exact Efst|intros Hc; change (enq s <= ppos p) in Hc; lia].
      + left. reflexivity.
      + intros j q Hj. apply nth_error_lupd_inv in Hj. destruct Hj as [[-> ->]|[Hne Hj]]; [left|right; split; [exact Hj|]].
        * unfold prod_ok. proj. rewrite Hat.
          split; [lia|]. split; [discriminate|]. split; [intros _; exact (P3 ltac:(lia))|]. split; [discriminate|].
          split; [|split; [exact P6|exact P7]].
          intros _. split; [exact W|]. split; [exact Dq|]. split; [exact Est|]. split; [exact Efst|].
          exists v, rest. split; [reflexivity|]. split; [exact Elog|]. split; [discriminate|reflexivity].
        * intros Fq E. exact (ci_uniq V s HI j i q p Hj Hi Hne Fq (or_introl Hpc) E).
      + eapply uniq_set_prod; [exact HI|reflexivity|].
        intros _ k r Hk Hne Fr. exact (ci_uniq V s HI k i r p Hk Hi Hne Fr (or_introl Hpc)).
      + apply (con_ok_wrote s s1 (ppos p) (st, CPop v) HI Hw Hwin); [rewrite Eslot; exact Efst|reflexivity].
      + exact (ci_popped V s HI).
    - (* publish: Release store of stamp + 1 *)
      destruct (P5 (or_intror Hpc)) as (W & Dq & Est & Efst & (v' & rest' & Ev & Elog & _ & Ec4)).
      injection Ev as <- <-. specialize (Ec4 eq_refl).
      destruct (in_flight_facts V s i p HI Hi (or_intror Hpc)) as (Hwin & _).
      destruct (slot_at s (ppos p)) as [st c] eqn:Eslot. cbn [fst snd] in Efst, Ec4. subst c. injection Hstep as <-.
      match goal with |- CInv ?x => set (s1 := x) end.
      assert (Hw : wrote s s1 (ppos p) (S (pst p), CPop v)) by (repeat split).
      pose proof (slot_at_wrote_same V s s1 _ _ HI Hw Hwin) as Hat.
      apply (cinv_write_slot s s1 (ppos p) (S (pst p), CPop v) HI Hw Hwin).
      + rewrite Eslot. cbn [fst]. lia.
      + exact (ci_err V s HI).
      + left. split; [reflexivity|].
        split; [intros _; left|intros Hc; change (enq s <= ppos p) in Hc; lia].
        unfold published_ok. rewrite Hat. cbn [fst snd]. split; [lia|].
        split; [intros _; exists v; split; [exact Elog|reflexivity]|intros Hc; change (ppos p < deq s) in Hc; lia].
      + left. reflexivity.
      + intros j q Hj. apply nth_error_lupd_inv in Hj. destruct Hj as [[-> ->]|[Hne Hj]]; [left|right; split; [exact Hj|]].
        * unfold prod_ok. proj.
          split; [lia|]. split; [reflexivity|]. split; [intros Hc; lia|]. split; [discriminate|].
          split; [intros [Hc|Hc]; discriminate|split; [exact P6|exact P7]].
        * intros Fq E. exact (ci_uniq V s HI j i q p Hj Hi Hne Fq (or_intror Hpc) E).
      + eapply uniq_set_prod; [exact HI|reflexivity|]. intros [Hc|Hc]; discriminate.
      + apply (con_ok_wrote s s1 (ppos p) (S (pst p), CPop v) HI Hw Hwin); [rewrite Eslot; exact Efst|reflexivity].
      + exact (ci_popped V s HI).
  Qed.

  Lemma cinv_set_con_low (s : cstate) c' :
    CInv s -> cpc (con s) <= 2 -> cpc c' <= 2 -> con_ok (set_con s c') -> CInv (set_con s c').
  Proof.
    intros HI Hlow Hlow' Hcon. pose proof (rel_low V s Hlow) as Hrd.
    assert (Hr : rel (set_con s c') = rel s) by (rewrite Hrd; exact (rel_low V (set_con s c') Hlow')).
    assert (Ht : taken (set_con s c') = taken s).
    { rewrite (taken_off_3 V s), (taken_off_3 V (set_con s c')); [reflexivity|proj; lia|lia]. }
    constructor; rewrite ?Hr, ?Ht; try apply HI.
    - intros m Hm.
      apply (slot_ok_ext V s _ m); [apply Nat.le_refl|auto|reflexivity|auto|reflexivity| |exact (ci_slots V s HI m Hm)].
      intros Hd. lia.
    - intros j q Hj.
      apply (prod_ok_frame s _ q (ci_prod V s HI j q Hj)); [apply Nat.le_refl|auto|intros x; apply Nat.le_refl|].
      intros Fq. destruct (in_flight_facts V s j q HI Hj Fq) as (_ & D & _). split; [exact (proj1 D)|reflexivity].
    - exact Hcon.
  Qed.

  (* during the borrow the consumer rewrites the cell, CPop v to CNone (pc 3) and CNone to CVac
     (pc 4), and moves to the next pc; the stamp stays *)
  Lemma cinv_borrow_cell (s : cstate) c pp out :
    CInv s -> 3 <= cpc (con s) <= 4 -> (cpc (con s) = 3 -> c = CNone) -> (cpc (con s) = 4 -> c = CVac) ->
    pp = firstn (deq s) (log s) ->
    CInv (set_con (upd_glob s (enq s) (closed s) (deq s)
                            (set_slot s (cdeq (con s)) (fst (slot_at s (cdeq (con s))), c)) (log s) pp (cerr s))
                  (mkcons (S (cpc (con s))) (cdeq (con s)) (cst (con s)) (cleft (con s)) out)).
  Proof.
    intros HI Hpc Hc3 Hc4 Hpp.
    destruct (borrow_facts V s HI ltac:(lia)) as (D1 & Hrel & Hwin & D2 & D3 & _).
    match goal with |- CInv ?x => set (s1 := x) end.
    assert (Hw : wrote s s1 (cdeq (con s)) (fst (slot_at s (cdeq (con s))), c)) by (repeat split).
    pose proof (slot_at_wrote_same V s s1 _ _ HI Hw Hwin) as Hat.
    assert (Hrel1 : rel s1 = rel s) by (rewrite (rel_high V s), (rel_high V s1); [reflexivity|unfold s1; proj; lia|lia]).
    apply (cinv_write_slot s s1 _ _ HI Hw Hwin).
    - apply Nat.le_refl.
    - exact (ci_err V s HI).
    - left. split; [exact Hrel1|]. pose proof (ci_deq V s HI).
      split; [intros _; left|intros H'; change (enq s <= cdeq (con s)) in H'; lia].
      unfold published_ok. rewrite Hat. unfold s1. proj. cbn [fst snd].
      split; [exact D3|]. split; [intros H'; lia|]. intros _. split; [intros E; lia|].
      split; [intros E; apply Hc3; lia|intros E; apply Hc4; lia].
    - right. split; [lia|exact (eq_sym Hrel)].
    - intros j q Hj. right. split; [exact Hj|]. intros Fq E.
      destruct (in_flight_facts V s j q HI Hj Fq) as (_ & D & _). lia.
    - exact (ci_uniq V s HI).
    - unfold con_ok. rewrite (Hat : slot_at s1 (cdeq (con s1)) = _). unfold s1. proj. cbn [fst].
      split; [lia|]. split; [intros H'; lia|]. split; [intros H'; lia|]. intros _. split; [exact D1|]. split; [exact D2|exact D3].
    - change (pp = firstn (taken s1) (log s)). rewrite (taken_off_3 V s1) by (unfold s1; proj; lia). exact Hpp.
  Qed.

  Lemma cons_step_inv (s s' : cstate) : CInv s -> cons_step s = Some s' -> CInv s'.
  Proof.
    intros HI Hstep. destruct (ci_con V s HI) as (K1 & K2 & K3 & K4).
    unfold cons_step in Hstep. destruct (cpc (con s)) as [|[|[|[|[|[|n]]]]]] eqn:Hpc; try discriminate.
    - (* load dequeue_pos *)
      destruct (cleft (con s)) as [|l]; [discriminate|]. injection Hstep as <-.
      apply cinv_set_con_low; [exact HI|lia|proj; lia|].
      unfold con_ok. proj. split; [lia|]. split; [intros _; reflexivity|].
      split; [intros Hc; discriminate|intros Hc; lia].
    - (* load the stamp *)
      injection Hstep as <-. apply cinv_set_con_low; [exact HI|lia|proj; lia|].
      unfold con_ok. proj. specialize (K2 ltac:(lia)).
      split; [lia|]. split; [intros _; exact K2|]. split; [|intros Hc; lia].
      intros _. rewrite K2. change (slot_at (set_con s _) (deq s)) with (slot_at s (deq s)).
      pose proof (rel_low V s ltac:(lia)) as Hrd. pose proof (ci_cap V s HI).
      destruct (ci_slots V s HI (deq s) ltac:(lia)) as [Hlt Hge]. destruct (Nat.lt_ge_cases (deq s) (enq s)) as [L|L].
      + destruct (Hlt L) as [[E _]|E]; [right; repeat split; assumption|left; exact E].
      + left. rewrite (Hge L). reflexivity.
    - specialize (K2 ltac:(lia)). specialize (K3 eq_refl).
      destruct (Nat.eqb_spec (cst (con s)) (2 * cdeq (con s))) as [Est|Est]; injection Hstep as <-.
      + (* nothing to pop *)
        apply cinv_set_con_low; [exact HI|lia|proj; lia|].
        unfold con_ok. proj. split; [lia|]. split; [intros Hc; lia|].
        split; [intros Hc; discriminate|intros Hc; lia].
      + (* a message is there: advance dequeue_pos *)
        destruct K3 as [E|(E1 & E2 & E3)]; [rewrite K2 in Est; contradiction|].
        match goal with |- context [if Nat.eqb ?a ?b then 0 else 1] => destruct (Nat.eqb_spec a b); [|lia] end.
        rewrite Nat.add_0_r, K2.
        match goal with |- CInv ?x => set (s1 := x) end.
        pose proof (rel_low V s ltac:(lia)) as Hrd.
        assert (Hrel : rel s1 = rel s) by (rewrite Hrd, (rel_high V s1 (le_n 3)); unfold s1; proj; lia).
        assert (Htk : taken s1 = taken s).
        { rewrite (taken_at_3 V s1 eq_refl), (taken_off_3 V s) by lia. unfold s1. proj. lia. }
        pose proof (ci_cap V s HI) as C1. pose proof (ci_slots V s HI) as C7.
        destruct (C7 (deq s) ltac:(lia)) as [Hlt _]. destruct (Hlt E3) as [[_ [A _]]|Ebad]; [|lia].
        destruct (A (Nat.le_refl _)) as (v & Hv & Hcell).
        constructor; rewrite ?Hrel, ?Htk; try apply HI.
        * exact E3.
        * intros m Hm. destruct (C7 m Hm) as [Hlt' Hge']. split; [|exact Hge'].
          intros Hm1. destruct (Hlt' Hm1) as [[E [A' B']]|E]; [left|right; exact E].
          split; [exact E|]. split; [intros Hd; change (S (deq s) <= m) in Hd; apply A'; lia|].
          intros Hd. change (m < S (deq s)) in Hd. assert (m = deq s) by lia. subst m.
          split; [intros _; exists v; split; assumption|split; intros Hc; discriminate].
        * intros j q Hj.
          apply (prod_ok_frame s s1 q (ci_prod V s HI j q Hj)); [apply Nat.le_refl|auto|intros x; apply Nat.le_refl|].
          intros Fq. destruct (in_flight_facts V s j q HI Hj Fq) as (_ & D & F). split; [|reflexivity].
          change (S (deq s) <= ppos q). destruct (Nat.eq_dec (ppos q) (deq s)) as [Eq|]; [rewrite Eq in F; lia|lia].
        * unfold con_ok, s1. proj. split; [lia|]. split; [intros Hc; lia|]. split; [discriminate|].
          intros _. split; [reflexivity|]. split; [lia|exact E2].
    - (* take the message out of the cell *)
      destruct (borrow_facts V s HI ltac:(lia)) as (D1 & _ & _ & _ & _ & B3 & _). destruct (B3 Hpc) as (v & Hv & Hcell).
      pose proof (cinv_borrow_cell s CNone (popped s ++ [v]) (CrVal v :: cout (con s)) HI) as H. rewrite Hpc in H.
      destruct (slot_at s (cdeq (con s))) as [st ce] eqn:Eslot. cbn [fst snd] in H, Hcell. subst ce. injection Hstep as <-.
      apply H; [lia|reflexivity|discriminate|].
      rewrite (ci_popped V s HI), (taken_at_3 V s Hpc), D1, Nat.sub_succ, Nat.sub_0_r.
      symmetry. apply firstn_snoc_nth. exact Hv.
    - (* drop of the borrow, part 1: the cell is vacated *)
      pose proof (cinv_borrow_cell s CVac (popped s) (cout (con s)) HI) as H. rewrite Hpc in H.
      destruct (slot_at s (cdeq (con s))) as [st ce] eqn:Eslot. cbn [fst] in H. injection Hstep as <-.
      apply H; [lia|discriminate|reflexivity|]. rewrite (ci_popped V s HI), (taken_off_3 V s) by lia. reflexivity.
    - (* drop of the borrow, part 2: Release store of the stamp of the next lap *)
      destruct (borrow_facts V s HI ltac:(lia)) as (D1 & Hrel & Hwin & D2 & D3 & _ & _ & B5).
      specialize (B5 Hpc). pose proof (ci_cap V s HI) as Hcap.
      destruct (slot_at s (cdeq (con s))) as [st ce] eqn:Eslot. cbn [fst snd] in D3, B5. subst ce. injection Hstep as <-.
      match goal with |- context [(?a, CVac)] => replace a with (2 * (cdeq (con s) + cap s)) by lia end.
      match goal with |- CInv ?x => set (s1 := x) end.
      assert (Hw : wrote s s1 (cdeq (con s)) (2 * (cdeq (con s) + cap s), CVac)) by (repeat split).
      (* the slot handed back now stands for the ticket one lap later *)
      assert (Hat : slot_at s1 (cdeq (con s) + cap s) = (2 * (cdeq (con s) + cap s), CVac)).
      { rewrite (slot_at_lap V s1 _ Hcap). exact (slot_at_wrote_same V s s1 _ _ HI Hw Hwin). }
      assert (Hrel1 : rel s1 = S (rel s)) by (rewrite Hrel, (rel_low V s1); [exact D1|unfold s1; proj; lia]).
      apply (cinv_write_slot s s1 (cdeq (con s)) (2 * (cdeq (con s) + cap s), CVac) HI Hw Hwin).
      + rewrite Eslot. cbn [fst]. lia.
      + exact (ci_err V s HI).
      + right. split; [exact (eq_sym Hrel)|]. split; [exact Hrel1|].
        split; [intros _; right; rewrite Hat; reflexivity|intros _; exact Hat].
      + right. split; [lia|exact (eq_sym Hrel)].
      + intros j q Hj. right. split; [exact Hj|]. intros Fq E.
        destruct (in_flight_facts V s j q HI Hj Fq) as (_ & D & _). lia.
      + exact (ci_uniq V s HI).
      + unfold con_ok, s1. proj. split; [lia|]. split; [intros Hc; lia|]. split; [discriminate|intros Hc; lia].
      + change (popped s = firstn (taken s1) (log s)).
        rewrite (ci_popped V s HI), (taken_off_3 V s), (taken_off_3 V s1); [reflexivity|unfold s1; proj; discriminate|lia].
  Qed.
End Steps.
