(* The scheduler-queue invariant: every pending action has a deadline strictly later than the current time
   and a positive period; its preservation by requests, runs and stepping commands; time never decreases. *)
Require Import NX.Base.Prelude NX.Model.PQ NX.Model.Sim.
Require Import NX.Proofs.PQProofs NX.Proofs.SimBasic NX.Proofs.SimDriver.

Definition per_pos (a : action) : Prop :=
  match aperiod a with Some p => (p > 0)%Z | None => True end.

Definition q_after (q : pq action) (t : Z) : Prop :=
  forall it, In it (items q) -> (fst (ikey it) > t)%Z /\ per_pos (ival it).
Definition q_from (q : pq action) (t : Z) : Prop :=
  forall it, In it (items q) -> (fst (ikey it) >= t)%Z /\ per_pos (ival it).

Definition q_inv (s : state) : Prop := q_after (queue s) (now s).

Lemma q_after_from q t : q_after q t -> q_from q t.
Proof. intros H it Hi. destruct (H it Hi). split; auto; lia. Qed.

Lemma per_pos_some a p : aperiod a = Some p -> per_pos a -> (p > 0)%Z.
Proof. unfold per_pos. intros ->. auto. Qed.

Lemma q_after_mono q t t' : q_after q t -> (t' <= t)%Z -> q_after q t'.
Proof. intros H L it Hi. destruct (H it Hi). split; auto; lia. Qed.

(* with any period check, as long as a null period cannot get through *)
Lemma sched_request_inv_gen s origin d mk keyed period chk s' code k :
  q_inv s -> (chk = false -> pzero period = false) ->
  sched_request s origin d mk keyed period chk = (s', code, k) -> q_inv s'.
Proof.
  intros HI HC H. destruct (sched_request_cases _ _ _ _ _ _ _ _ _ _ H) as (EC & [(_ & -> & _)|(E0 & _)]); [exact HI|].
  assert (EP : pzero period = false).
  { destruct chk; [|auto]. rewrite E0 in EC. destruct (pzero period); [discriminate|reflexivity]. }
  rewrite E0 in H. apply sched_request_ok in H. destruct H as (HT & HQ & HN & _).
  unfold q_inv, q_after. rewrite HQ, HN. intros it Hi. apply in_app_or in Hi.
  destruct Hi as [Hi|[<-|[]]]; [apply HI; auto|]. cbn. split; [lia|].
  unfold per_pos; cbn. apply pzero_false; auto.
Qed.

Lemma sched_request_inv s origin d mk keyed period s' code k :
  q_inv s -> sched_request s origin d mk keyed period true = (s', code, k) -> q_inv s'.
Proof. intros HI. apply sched_request_inv_gen; [exact HI|discriminate]. Qed.

Lemma q_inv_ext s s' : queue s' = queue s -> now s' = now s -> q_inv s -> q_inv s'.
Proof. unfold q_inv. intros -> ->. auto. Qed.

Lemma net_step_inv b s l s' : q_inv s -> net_step b s l = Some s' -> q_inv s'.
Proof. exact (net_step_keeps q_inv q_inv_ext sched_request_inv b s l s'). Qed.

Lemma sim_run_inv b fuel ch s s' r nd :
  q_inv s -> sim_run b fuel ch s = (s', r, nd) -> q_inv s'.
Proof. exact (sim_run_keeps q_inv q_inv_ext sched_request_inv b fuel ch s s' r nd). Qed.

(* The one induction over peek_next_key: it pulls cancelled heads, and stops at a live head within the bound,
   at a head beyond it, or on an empty queue.  [P] is any relation closed under such pulls. *)
Lemma peek_next_steps s bound (P : pq action -> pq action -> Prop) :
  (forall q, P q q) ->
  (forall q k a q1 q', pq_pull q = (Some (k, a), q1) -> key_cancelled s (akey a) = true -> P q1 q' -> P q q') ->
  forall fuel q nk q', peek_next fuel s q bound = (nk, q') ->
  P q q' /\
  match nk with
  | Some k => exists a, pq_peek q' = Some (k, a) /\ key_cancelled s (akey a) = false /\
                        le_bound (fst k) bound = true
  | None => length (items q) < fuel ->
            match pq_peek q' with Some (k, _) => le_bound (fst k) bound = false | None => True end
  end.
Proof.
  intros Hrefl Hstep. induction fuel as [|f IH]; intros q nk q' H; cbn [peek_next] in H.
  { injection H as <- <-. split; [apply Hrefl|]. intros L; lia. }
  destruct (pq_peek q) as [[k a]|] eqn:EP.
  2:{ injection H as <- <-. split; [apply Hrefl|]. rewrite EP. auto. }
  destruct (le_bound (fst k) bound) eqn:EB.
  2:{ injection H as <- <-. split; [apply Hrefl|]. rewrite EP. auto. }
  destruct (key_cancelled s (akey a)) eqn:EC.
  2:{ injection H as <- <-. split; [apply Hrefl|]. eauto. }
  destruct (pq_pull q) as [o q1] eqn:EL. cbn [snd] in H.
  pose proof (pq_pull_peek _ q) as E. rewrite EL, EP in E. cbn [fst] in E. subst o.
  destruct (IH _ _ _ H) as [HP HR]. split; [eapply Hstep; eauto|].
  destruct nk; [exact HR|]. intros L. apply HR. apply pq_pull_some in EL. lia.
Qed.

Lemma peek_next_sub fuel s q bound nk q' :
  peek_next fuel s q bound = (nk, q') -> forall y, In y (items q') -> In y (items q).
Proof.
  intros H. apply (peek_next_steps s bound (fun q q' => forall y, In y (items q') -> In y (items q))) in H;
    [apply H|auto|].
  intros q0 k a q1 q2 EL _ IH y Hy. apply pq_pull_some in EL. apply EL, IH, Hy.
Qed.

Lemma peek_next_from fuel s q bound nk q0 t :
  q_after q t -> peek_next fuel s q bound = (nk, q0) ->
  q_after q0 t /\
  forall k, nk = Some k -> (fst k > t)%Z /\ le_bound (fst k) bound = true /\ q_from q0 (fst k).
Proof.
  intros HI EN.
  assert (HI0 : q_after q0 t) by (intros y Hy; apply HI; eapply peek_next_sub; eauto).
  split; [exact HI0|]. intros k ->.
  apply (peek_next_steps s bound (fun _ _ => True)) in EN; auto. destruct EN as (_ & a & EP & _ & HB).
  apply pq_peek_spec in EP. destruct EP as (m & Hm & Hk & _ & Hmin).
  split; [destruct (HI0 m Hm) as [A _]; subst; exact A|]. split; [exact HB|].
  intros y Hy. destruct (HI0 y Hy) as [_ P]. split; [|exact P].
  pose proof (key_le_fst _ _ (Hmin y Hy)). lia.
Qed.

Lemma pull_next_spec q k a q1 :
  pull_next q = Some (k, a, q1) ->
  pq_peek q = Some (k, a) /\
  forall y, In y (items q1) ->
    In y (items q) \/ exists p, aperiod a = Some p /\ ikey y = ((fst k + p)%Z, snd k) /\ ival y = a.
Proof.
  unfold pull_next. destruct (pq_pull q) as [[[k0 a0]|] q0] eqn:EL; [|discriminate].
  intros H; injection H as <- <- <-. apply pq_pull_some in EL. destruct EL as (EP & Hsub & _).
  split; auto. intros y Hy. destruct (aperiod a0) as [p|] eqn:EA; [|left; auto].
  cbn [pq_insert items] in Hy. apply in_app_or in Hy.
  destruct Hy as [Hy|[<-|[]]]; [left; auto|]. right. exists p. auto.
Qed.

Lemma pull_next_from q t k a q1 :
  q_from q t -> pull_next q = Some (k, a, q1) -> (fst k >= t)%Z /\ per_pos a /\ q_from q1 t.
Proof.
  intros HQ H. apply pull_next_spec in H. destruct H as [EPK Hq1].
  apply pq_peek_spec in EPK. destruct EPK as [m (Hm & <- & <- & _)].
  destruct (HQ m Hm) as [A B]. split; [exact A|]. split; [exact B|].
  intros y Hy. destruct (Hq1 y Hy) as [Hy'|[p (EA & EK & EV)]]; [apply HQ; auto|].
  rewrite EK, EV. cbn [fst]. pose proof (per_pos_some _ _ EA B). split; [lia|exact B].
Qed.

Lemma crit_unfold f s q bound cur group groups res :
  crit (S f) s q bound cur group groups = Some res ->
  exists k a q1 nk q2,
    pull_next q = Some (k, a, q1) /\ peek_next (S (pq_len q1)) s q1 bound = (nk, q2) /\
    let groups' := groups ++ [group ++ [aop a]] in
    ((nk = Some cur /\ crit f s q2 bound cur (group ++ [aop a]) groups = Some res) \/
     (exists k', nk = Some k' /\ k' <> cur /\ fst k' = fst cur /\ crit f s q2 bound k' [] groups' = Some res) \/
     ((forall k', nk = Some k' -> fst k' <> fst cur) /\ res = (q2, groups'))).
Proof.
  cbn [crit]. destruct (pull_next q) as [[[k a] q1]|]; [|discriminate].
  destruct (peek_next (S (pq_len q1)) s q1 bound) as [nk q2] eqn:EN. intros H.
  exists k, a, q1, nk, q2. split; [reflexivity|]. split; [exact EN|]. cbv zeta.
  destruct nk as [k'|]; cbn [opt_key_eqb] in H.
  - destruct (key_eqb_spec k' cur) as [->|NE]; [left; auto|right].
    destruct (Z.eqb_spec (fst k') (fst cur)) as [E|E]; [left; exists k'; auto|right].
    injection H as <-. split; [|reflexivity]. intros k'' X. injection X as <-. exact E.
  - right; right. injection H as <-. split; [discriminate|reflexivity].
Qed.

Lemma crit_round_from s q bound t k a q1 nk q2 :
  q_from q t -> le_bound t bound = true ->
  pull_next q = Some (k, a, q1) -> peek_next (S (pq_len q1)) s q1 bound = (nk, q2) ->
  q_from q2 t /\ (forall k', nk = Some k' -> le_bound (fst k') bound = true) /\
  ((forall k', nk = Some k' -> fst k' <> t) -> q_after q2 t).
Proof.
  intros HQ HB EP EN. destruct (pull_next_from _ _ _ _ _ HQ EP) as (_ & _ & HQ1).
  assert (HQ2 : q_from q2 t) by (intros y Hy; apply HQ1; eapply peek_next_sub; eauto).
  apply (peek_next_steps s bound (fun _ _ => True)) in EN; auto. destruct EN as [_ HR].
  split; [exact HQ2|]. split; [intros k' ->; destruct HR as (a' & _ & _ & X); exact X|].
  intros NS y Hy. destruct (HQ2 y Hy) as [A B]. split; [|exact B].
  (* the head of q2, the least key left, is later than t: it is the live head
     found, at another time, or it lies beyond the bound *)
  destruct (pq_peek q2) as [[k0 a0]|] eqn:EP0; [|apply pq_peek_none in EP0; rewrite EP0 in Hy; destruct Hy].
  apply pq_peek_spec in EP0. destruct EP0 as (m & Hm & Hk & _ & Hmin).
  pose proof (key_le_fst _ _ (Hmin y Hy)). destruct (HQ2 m Hm) as [A' _]. rewrite Hk in A'.
  enough (fst k0 <> t) by lia. destruct nk as [k'|].
  - destruct HR as (a' & EP' & _). injection EP' as -> _. apply (NS k' eq_refl).
  - specialize (HR ltac:(unfold pq_len; lia)). intros E. rewrite E in HR. congruence.
Qed.

Lemma crit_spec fuel : forall s q bound cur group groups q' gs,
  crit fuel s q bound cur group groups = Some (q', gs) ->
  q_from q (fst cur) -> le_bound (fst cur) bound = true ->
  q_after q' (fst cur).
Proof.
  induction fuel as [|f IH]; intros s q bound cur group groups q' gs H HQ HB; [discriminate|].
  apply crit_unfold in H. destruct H as (k & a & q1 & nk & q2 & EP & EN & C).
  destruct (crit_round_from _ _ _ _ _ _ _ _ _ HQ HB EP EN) as (HQ2 & HB2 & HA).
  destruct C as [[-> H]|[(k' & -> & _ & E & H)|[NS H]]].
  - eapply IH; eauto.
  - rewrite <- E in *. eapply IH; eauto.
  - injection H as -> _. apply HA, NS.
Qed.

Lemma step_bounded_inv b fuel ch s bound s' r t nd :
  q_inv s -> step_bounded b fuel ch s bound = (s', r, t, nd) -> r <> RHang ->
  q_inv s' /\ (now s <= now s')%Z /\
  (forall x, t = Some x -> now s' = x /\ (now s < x)%Z /\ le_bound x bound = true) /\
  (t = None -> r = ROk -> now s' = now s).
Proof.
  intros HI H NH. apply step_bounded_cases in H.
  destruct H as [(-> & _ & ->)|(nk & q0 & EN & H)].
  { split; [exact HI|]. split; [lia|]. split; [discriminate|auto]. }
  destruct (peek_next_from _ _ _ _ _ _ _ HI EN) as (HI0 & HSome).
  destruct H as [(_ & -> & _ & ->)|(k & -> & [[_ ->]|(q1 & groups & s3 & EC & FQ & FN & _ & _ & H)])];
    [|congruence|].
  { split; [exact HI0|]. split; [cbn; lia|]. split; [discriminate|auto]. }
  destruct (HSome k eq_refl) as (HK & HB & HQ0).
  apply crit_spec in EC; [|exact HQ0|exact HB].
  assert (HI3 : q_inv s3) by (unfold q_inv; rewrite FQ, FN; exact EC).
  destruct H as [(lag & _ & -> & -> & ->)|(_ & ER & ->)].
  - split; [exact HI3|]. cbn [now set_terminated]. rewrite FN.
    split; [lia|]. split; discriminate.
  - pose proof (sim_run_inv _ _ _ _ _ _ _ HI3 ER) as HI4.
    destruct (sim_run_frame _ _ _ _ _ _ _ ER) as (N4 & _). rewrite N4, FN.
    split; [exact HI4|]. split; [lia|]. destruct (is_ok r) eqn:OK.
    + split; [|discriminate]. intros x E. injection E as <-. auto with zarith.
    + split; [discriminate|]. intros _ ->. discriminate OK.
Qed.

Lemma step_bounded_idle b fuel ch s T s' nd :
  q_inv s -> step_bounded b fuel ch s (Some T) = (s', ROk, None, nd) -> q_after (queue s') T.
Proof.
  intros HI H. apply step_bounded_cases in H.
  destruct H as [(_ & X & _)|(nk & q0 & EN & H)]; [discriminate X|].
  destruct H as [(-> & -> & _)|(k & _ & [[_ X]|(q1 & groups & s3 & _ & _ & _ & _ & _ & H)])];
    [|discriminate X|destruct H as [(lag & _ & _ & X & _)|(_ & _ & X)]; discriminate X].
  intros y Hy. change (In y (items q0)) in Hy.
  destruct (HI y (peek_next_sub _ _ _ _ _ _ EN y Hy)) as [_ P]. split; [|exact P].
  apply (peek_next_steps s (Some T) (fun _ _ => True)) in EN; auto. destruct EN as [_ HR].
  specialize (HR ltac:(unfold pq_len; lia)).
  destruct (pq_peek q0) as [[k0 a0]|] eqn:EP0; [|apply pq_peek_none in EP0; rewrite EP0 in Hy; destruct Hy].
  apply pq_peek_spec in EP0. destruct EP0 as (m & _ & Hk & _ & Hmin).
  cbn in HR. apply Z.leb_gt in HR. pose proof (key_le_fst _ _ (Hmin y Hy)). lia.
Qed.

Lemma step_until_loop_inv b n fuel ch s target nd0 s' r nd :
  q_inv s -> (now s <= target)%Z ->
  step_until_loop b n fuel ch s target nd0 = (s', r, nd) -> r <> RHang ->
  q_inv s' /\ (now s <= now s')%Z /\ (r = ROk -> now s' = target).
Proof.
  intros HI HT. set (t0 := now s).
  apply (step_until_loop_steps b fuel ch target (fun s => q_inv s /\ (t0 <= now s <= target)%Z)
           (fun s' r => r <> RHang -> q_inv s' /\ (t0 <= now s')%Z /\ (r = ROk -> now s' = target)));
    [| |unfold t0; split; [exact HI|lia]].
  { intros s0 [HI0 L0] _. split; [exact HI0|]. split; [lia|discriminate]. }
  intros s0 s1 r1 t1 nd1 [HI0 L0] ES.
  pose proof (step_bounded_inv _ _ _ _ _ _ _ _ _ HI0 ES) as INV. destruct (is_ok r1) eqn:EO.
  2:{ intros NH. destruct (INV NH) as (HI1 & L1 & _). split; [exact HI1|]. split; [lia|]. intros ->. discriminate EO. }
  destruct INV as (HI1 & L1 & HS & _); [destruct r1; discriminate|]. destruct t1 as [x|].
  - destruct (HS x eq_refl) as (E1 & _ & E3). cbn in E3. apply Z.leb_le in E3.
    destruct (Z.eqb_spec x target) as [->|NE]; [|split; [exact HI1|lia]].
    intros _. split; [exact HI1|]. split; [lia|auto].
  - (* the time is set to the target; nothing is pending at or before it *)
    assert (r1 = ROk) by (destruct r1; try discriminate EO; reflexivity). subst r1.
    pose proof (step_bounded_idle _ _ _ _ _ _ _ HI0 ES) as HA.
    split; [|intros lag]; intros _; (split; [exact HA|]); (split; [cbn; lia|]); [reflexivity|discriminate].
Qed.
