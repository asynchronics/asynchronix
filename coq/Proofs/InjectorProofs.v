(* injector.rs: the `is_empty` flag is exact, no bucket is empty or exceeds the capacity, tasks are conserved. *)
Require Import NX.Base.Prelude NX.Base.ListX NX.Model.Injector.

(* buckets pushed by the worker are non-empty and within capacity (Bucket::from_iter takes at most
   CAPACITY tasks of a non-empty drain) *)
Definition op_ok (cap : nat) (o : inj_op) : Prop :=
  match o with JPushBucket b => b <> [] /\ length b <= cap | _ => True end.

Definition inj_inv (cap : nat) (s : injector) : Prop :=
  (iflag s = true <-> ibk s = []) /\ Forall (fun b => b <> [] /\ length b <= cap) (ibk s).

Lemma inj_inv_new cap : inj_inv cap inj_new.
Proof. split; [cbn; tauto|constructor]. Qed.

Lemma inj_step_inv cap s o : 1 <= cap -> inj_inv cap s -> op_ok cap o -> inj_inv cap (fst (inj_step cap s o)).
Proof.
  intros Hc [Hf Hb] Ho. destruct o as [t|b| |]; cbn [inj_step fst].
  - unfold inj_insert. destruct (ibk s) as [|b r] eqn:E.
    + split; cbn; [split; discriminate|]. constructor; [split; [discriminate|cbn; lia]|constructor].
    + inversion Hb as [|? ? [Hb1 Hb2] Hr]; subst.
      assert (Ff : iflag s = false) by (destruct (iflag s); auto; destruct Hf as [Hf _]; discriminate (Hf eq_refl)).
      destruct (Nat.ltb_spec (length b) cap).
      * split; cbn; [rewrite Ff; split; discriminate|].
        constructor; auto. split; [destruct b; discriminate|rewrite app_length; cbn; lia].
      * split; cbn; [rewrite Ff; split; discriminate|].
        constructor; [split; [discriminate|cbn; lia]|]. apply Forall_app. split; auto.
  - unfold inj_push_bucket. cbn in Ho. split; cbn.
    + destruct (ibk s) eqn:E; cbn; [split; discriminate|].
      assert (Ff : iflag s = false) by (destruct (iflag s); auto; destruct Hf as [Hf _]; discriminate (Hf eq_refl)).
      rewrite Ff. split; [discriminate|]. intros F. destruct l; discriminate.
    + apply Forall_app. split; auto.
  - destruct s as [bk fl]. unfold inj_pop, inj_inv in *. cbn [ibk iflag] in *.
    destruct fl; cbn [fst]; [split; [exact Hf|exact Hb]|].
    destruct (rev bk) as [|b r] eqn:Er; cbn [fst ibk iflag]; [split; [tauto|constructor]|].
    apply rev_swap in Er. cbn [rev] in Er. rewrite Er in Hb. apply Forall_app in Hb. destruct Hb as [Hb1 _].
    split; auto. destruct r as [|c r]; cbn; [tauto|]. split; [discriminate|].
    intros F. apply (f_equal (@length _)) in F. rewrite app_length in F. cbn in F. lia.
  - split; auto.
Qed.

Theorem inj_run_inv cap ops : 1 <= cap -> Forall (op_ok cap) ops ->
  forall s, inj_inv cap s -> inj_inv cap (fst (inj_run cap s ops)).
Proof.
  intros Hc. induction ops as [|o r IH]; intros Ho s I; cbn [inj_run]; [exact I|].
  inversion Ho as [|? ? Ho1 Ho2]; subst.
  pose proof (inj_step_inv cap s o Hc I Ho1) as I1.
  destruct (inj_step cap s o) as [s1 x]. cbn [fst] in I1.
  specialize (IH Ho2 s1 I1). destruct (inj_run cap s1 r) as [s2 xs]. exact IH.
Qed.

(* is_empty() answers exactly "no task is stored" *)
Theorem inj_inv_flag_exact cap s : inj_inv cap s -> (iflag s = true <-> inj_tasks s = []).
Proof.
  intros [Hf Hb].
  rewrite Hf. unfold inj_tasks. split; [intros ->; reflexivity|].
  intros E. destruct (ibk s) as [|b r]; auto. inversion Hb as [|? ? [Hb1 _] _]; subst.
  cbn in E. destruct b; [contradiction|discriminate].
Qed.

(* pop_bucket returns None exactly when nothing is stored, otherwise a non-empty bucket, and the stored
   tasks are those stored before minus the returned ones *)
Theorem inj_pop_spec cap s : inj_inv cap s ->
  match inj_pop s with
  | (s', None) => inj_tasks s = [] /\ s' = s
  | (s', Some b) => b <> [] /\ Permutation (inj_tasks s) (b ++ inj_tasks s')
  end.
Proof.
  destruct s as [bk fl]. unfold inj_inv, inj_pop, inj_tasks. cbn [ibk iflag]. intros [Hf Hb].
  destruct fl.
  - split; auto. rewrite (proj1 Hf eq_refl). reflexivity.
  - destruct (rev bk) as [|b r] eqn:Er.
    + apply rev_swap in Er. discriminate (proj2 Hf Er).
    + apply rev_swap in Er. cbn [rev] in Er. rewrite Er in Hb |- *. apply Forall_app in Hb. destruct Hb as [_ Hb2]. inversion Hb2 as [|? ? [Hb3 _] _]; subst.
      split; auto. cbn [ibk]. rewrite concat_app. cbn. rewrite app_nil_r.
      apply Permutation_app_comm.
Qed.

Theorem inj_insert_spec cap s t : Permutation (inj_tasks (inj_insert cap s t)) (t :: inj_tasks s).
Proof.
  unfold inj_insert, inj_tasks. destruct (ibk s) as [|b r]; cbn [ibk concat]; [cbn; auto|].
  destruct (length b <? cap); cbn [ibk concat app].
  - rewrite <- app_assoc. cbn [app]. symmetry. apply Permutation_middle.
  - rewrite concat_app. cbn [concat]. rewrite app_nil_r. constructor. apply Permutation_app_comm.
Qed.

Theorem inj_push_spec s b : inj_tasks (inj_push_bucket s b) = inj_tasks s ++ b.
Proof. unfold inj_push_bucket, inj_tasks; cbn. rewrite concat_app. cbn. rewrite app_nil_r. reflexivity. Qed.
