(* SyncCell (util/sync_cell.rs) under the release/acquire + relaxed + fences memory model of
   Model/WMem.v: for the programs wprog_proved / rprog_proved, any initial value, any sequence of
   written values, any number of readers, any schedule and any choice of the messages the loads
   read, every value returned by try_read is a value the cell actually had (never torn), and
   successive results of one reader follow the write order and are never older than what that
   reader's view already contained. *)
Require Import NX.Base.Prelude NX.Base.ListX NX.Model.WMem.

Definition vle (u v : view) : Prop := vq u <= vq v /\ va u <= va v /\ vb u <= vb v.

Fixpoint desc (l : list nat) : Prop :=
  match l with
  | [] => True
  | x :: r => (match r with [] => True | y :: _ => y <= x end) /\ desc r
  end.

Definition vals_of (s : wstate) : list (Z * Z) :=
  whist s ++ match threads s with w :: _ => args w | [] => [] end.

Record MemOk (m : mem) (vals : list (Z * Z)) (k wp : nat) : Prop := {
  mo_lq : length (mq m) = 2 * k + 1 + (if Nat.leb 2 wp then 1 else 0);
  mo_la : length (ma m) = k + 1 + (if Nat.leb 4 wp then 1 else 0);
  mo_lb : length (mb m) = k + 1 + (if Nat.leb 5 wp then 1 else 0);
  mo_q : forall t g, nth_error (mq m) t = Some g ->
           mval g = Z.of_nat t /\
           forall j, t = 2 * j -> t <= vq (mview g) /\ j <= va (mview g) /\ j <= vb (mview g);
  mo_a : forall p g, nth_error (ma m) p = Some g ->
           (exists v, nth_error vals p = Some v /\ mval g = fst v) /\ 2 * p - 1 <= vq (mview g);
  mo_b : forall p g, nth_error (mb m) p = Some g ->
           (exists v, nth_error vals p = Some v /\ mval g = snd v) /\ 2 * p - 1 <= vq (mview g)
}.

Record WriterOk (w : thread) (m : mem) (k : nat) : Prop := {
  wo_pc : pc w <= 5;
  wo_idle : args w = [] -> pc w = 0;
  wo_cur : cur w = {| vq := length (mq m) - 1; va := length (ma m) - 1; vb := length (mb m) - 1 |};
  wo_reg : 1 <= pc w -> rget R0 (rv w) = Z.of_nat (2 * k);
  wo_frel : 3 <= pc w -> 2 * k + 1 <= vq (frel w)
}.

Record ReaderOk (r : thread) (m : mem) (vals whist : list (Z * Z)) : Prop := {
  ro_pc : pc r <= 6;
  ro_acq : vle (cur r) (acq r);
  ro_outs : forall t v, In (t, v) (outs r) ->
              (exists j, t = 2 * j /\ nth_error whist j = Some v) /\ t <= vq (cur r);
  ro_desc : desc (map fst (outs r));
  ro_1 : 1 <= pc r ->
         rget R0 (rv r) = Z.of_nat (tget R0 (rt r)) /\ tget R0 (rt r) <= vq (cur r) /\
         tget R0 (rt r) < length (mq m) /\
         (forall j, tget R0 (rt r) = 2 * j -> j <= va (cur r) /\ j <= vb (cur r)) /\
         (forall t v, In (t, v) (outs r) -> t <= tget R0 (rt r));
  ro_2 : 2 <= pc r -> exists j, tget R0 (rt r) = 2 * j;
  ro_3 : 3 <= pc r ->
         (forall j, tget R0 (rt r) = 2 * j -> j <= tget R1 (rt r)) /\
         (exists v, nth_error vals (tget R1 (rt r)) = Some v /\ rget R1 (rv r) = fst v) /\
         2 * tget R1 (rt r) - 1 <= vq (acq r);
  ro_4 : 4 <= pc r ->
         (forall j, tget R0 (rt r) = 2 * j -> j <= tget R2 (rt r)) /\
         (exists v, nth_error vals (tget R2 (rt r)) = Some v /\ rget R2 (rv r) = snd v) /\
         2 * tget R2 (rt r) - 1 <= vq (acq r);
  ro_5 : 5 <= pc r -> 2 * tget R1 (rt r) - 1 <= vq (cur r) /\ 2 * tget R2 (rt r) - 1 <= vq (cur r);
  ro_6 : 6 <= pc r ->
         rget R3 (rv r) = Z.of_nat (tget R3 (rt r)) /\
         2 * tget R1 (rt r) - 1 <= tget R3 (rt r) /\ 2 * tget R2 (rt r) - 1 <= tget R3 (rt r)
}.

Record WInv (s : wstate) : Prop := {
  wi_wp : wprog s = wprog_proved;
  wi_rp : rprog s = rprog_proved;
  wi_hist : whist s <> [];
  wi_body : exists w rs,
      threads s = w :: rs /\
      MemOk (wmem s) (vals_of s) (length (whist s) - 1) (pc w) /\
      WriterOk w (wmem s) (length (whist s) - 1) /\
      Forall (fun r => ReaderOk r (wmem s) (vals_of s) (whist s)) rs
}.

Lemma vle_refl u : vle u u.
Proof. unfold vle. lia. Qed.

Lemma vle_join_mono u u' v v' : vle u u' -> vle v v' -> vle (vjoin u v) (vjoin u' v').
Proof. unfold vle, vjoin. cbn [vq va vb]. intros (Hq & Ha & Hb) (Hq' & Ha' & Hb'). auto using Nat.max_le_compat. Qed.

Lemma vle_join_l u v : vle u (vjoin u v).
Proof. unfold vle, vjoin. cbn [vq va vb]. lia. Qed.

Lemma vle_join_r u v w : vle u v -> vle u (vjoin v w).
Proof. unfold vle, vjoin. cbn [vq va vb]. lia. Qed.

Lemma vjoin_assoc u v w : vjoin (vjoin u v) w = vjoin u (vjoin v w).
Proof. unfold vjoin. cbn [vq va vb]. rewrite !Nat.max_assoc. reflexivity. Qed.

Lemma exec_views i th m c th1 m1 :
  exec i th m c = Some (th1, m1) -> vle (cur th) (acq th) ->
  vle (cur th) (cur th1) /\ vle (acq th) (acq th1) /\ vle (cur th1) (acq th1).
Proof.
  intros He A. destruct i as [x o r|x o e|o|r|r1 r2 ra rb]; cbn [exec] in He.
  - destruct (nth_error _ _) as [g|]; [|discriminate]. injection He as <- _. cbn [cur acq].
    destruct o; rewrite ?vjoin_assoc; auto using vle_join_l, vle_join_mono, vle_join_r, vle_refl.
  - injection He as <- _. cbn [cur acq]. auto using vle_join_l, vle_join_mono, vle_refl.
  - injection He as <- _. cbn [cur acq]. destruct o; auto using vle_refl.
  - injection He as <- _. auto using vle_refl.
  - injection He as <- _. auto using vle_refl.
Qed.

Lemma odd_false_even t : Z.odd (Z.of_nat t) = false -> exists j, t = 2 * j.
Proof.
  intros H. rewrite <- Z.negb_even in H. apply negb_false_iff in H. apply Z.even_spec in H.
  destruct H as (m & Hm). exists (Z.to_nat m). lia.
Qed.

(* Both halves were read at a timestamp at least j, since the first load of 2j acquired the views
   of that write; and at most j, since the messages read are below the reloaded sequence number in
   the acquire view, which is the first one again: both are the halves of write j. *)
Lemma validated_halves j t1 t2 t3 :
  j <= t1 -> j <= t2 -> 2 * t1 - 1 <= t3 -> 2 * t2 - 1 <= t3 -> t3 = 2 * j -> t1 = j /\ t2 = j.
Proof. lia. Qed.

Lemma reader_mono rpc rrv rrt rcur racq rfrel rargs routs cu ac m m' vals whist whist' :
  ReaderOk {| pc := rpc; rv := rrv; rt := rrt; cur := rcur; acq := racq; frel := rfrel; args := rargs; outs := routs |}
           m vals whist ->
  length (mq m) <= length (mq m') ->
  (forall j v, nth_error whist j = Some v -> nth_error whist' j = Some v) ->
  vle rcur cu -> vle racq ac -> vle cu ac ->
  ReaderOk {| pc := rpc; rv := rrv; rt := rrt; cur := cu; acq := ac; frel := rfrel; args := rargs; outs := routs |}
           m' vals whist'.
Proof.
  intros [Hpc _ Houts Hdesc At1 At2 At3 At4 At5 At6] Hl Hh (Cq & Ca & Cb) (Aq & _) A. constructor; cbn [pc rv rt cur acq outs] in *; auto.
  - intros t v Hin. destruct (Houts t v Hin) as ((j & E & Hj) & Hle). split; [eauto|lia].
  - intros Hp. destruct (At1 Hp) as (E1 & E2 & E3 & E4 & E5). repeat split; auto; try lia; apply E4 in H; lia.
  - intros Hp. destruct (At3 Hp) as (F1 & F2 & F3). repeat split; auto; lia.
  - intros Hp. destruct (At4 Hp) as (F1 & F2 & F3). repeat split; auto; lia.
  - intros Hp. destruct (At5 Hp). lia.
Qed.

Ltac fields :=
  cbn [rget rset g0 g1 g2 g3 tget tset h0 h1 h2 h3 pc rv rt cur acq frel args outs set_pc
       vjoin vsingle vget vq va vb mval mview mget mq ma mb] in *.

(* opens ReaderOk of the thread after the step: what was known before is in the context, what is
   asked at program points not yet reached is void, and the new fact is left *)
Ltac reader_ok := constructor; fields; auto 7; try (intros Hp; exfalso; clear - Hp; lia).

Lemma reader_step_ok r m vals whist k wp c i th1 m1 :
  MemOk m vals k wp -> length whist = k + 1 ->
  (forall j, j < length whist -> nth_error vals j = nth_error whist j) ->
  ReaderOk r m vals whist ->
  nth_error rprog_proved (pc r) = Some i -> exec i r m c = Some (th1, m1) ->
  m1 = m /\ ReaderOk th1 m vals whist.
Proof.
  intros HM Hlw Hpre R Hi He.
  destruct (exec_views _ _ _ _ _ _ He (ro_acq _ _ _ _ R)) as (Vc & Va & Vca).
  pose proof (ro_outs _ _ _ _ R) as O0.
  destruct r as [rpc rrv rrt rcur racq rfrel rargs routs].
  (* what is known of the reader is first restated for the views it has after the step *)
  destruct (reader_mono _ _ _ _ _ _ _ _ _ _ _ _ _ _ _ R (le_n _) (fun _ _ H => H) Vc Va Vca)
    as [Hpc _ Houts Hdesc At1 At2 At3 At4 At5 At6].
  fields.
  destruct rpc as [|[|[|[|[|[|[|rpc]]]]]]]; [..|exfalso; clear - Hpc; lia]; unfold rprog_proved in Hi; cbn [nth_error] in Hi;
    injection Hi as <-; unfold exec in He; fields.
  - (* load seq, Acquire *)
    destruct (nth_error (mq m) (vq rcur + c)) as [g|] eqn:Eg; [|discriminate]. injection He as <- <-.
    destruct (mo_q _ _ _ _ HM _ _ Eg) as (Ev & Hview). apply nth_error_some_lt in Eg.
    split; [reflexivity|]. reader_ok.
    intros _. split; [exact Ev|]. split; [lia|]. split; [exact Eg|]. split.
    + intros j Ej. destruct (Hview j Ej) as (_ & Ha & Hb). clear - Ha Hb. lia.
    + intros t v Hin. destruct (O0 t v Hin) as (_ & Hle). lia.
  - (* odd sequence number: Err *)
    injection He as <- <-. split; [reflexivity|]. specialize (At1 ltac:(clear; lia)).
    destruct (Z.odd (g0 rrv)) eqn:Eo; reader_ok.
    intros _. apply odd_false_even. destruct At1 as (<- & _). exact Eo.
  - (* load secs, Relaxed *)
    destruct (nth_error (ma m) (va rcur + c)) as [g|] eqn:Eg; [|discriminate]. injection He as <- <-.
    destruct (mo_a _ _ _ _ HM _ _ Eg) as (Hv & Hview). destruct (At1 ltac:(clear; lia)) as (_ & _ & _ & E4 & _).
    split; [reflexivity|]. reader_ok.
    intros _. split; [intros j Ej; destruct (E4 j Ej); lia|]. split; [exact Hv|lia].
  - (* load nanos, Relaxed *)
    destruct (nth_error (mb m) (vb rcur + c)) as [g|] eqn:Eg; [|discriminate]. injection He as <- <-.
    destruct (mo_b _ _ _ _ HM _ _ Eg) as (Hv & Hview). destruct (At1 ltac:(clear; lia)) as (_ & _ & _ & E4 & _).
    split; [reflexivity|]. reader_ok.
    intros _. split; [intros j Ej; destruct (E4 j Ej); lia|]. split; [exact Hv|lia].
  - (* fence Acquire *)
    injection He as <- <-. split; [reflexivity|].
    destruct (At3 ltac:(clear; lia)) as (_ & _ & F3). destruct (At4 ltac:(clear; lia)) as (_ & _ & G3).
    reader_ok.
  - (* reload seq, Relaxed *)
    destruct (nth_error (mq m) (vq rcur + c)) as [g|] eqn:Eg; [|discriminate]. injection He as <- <-.
    destruct (mo_q _ _ _ _ HM _ _ Eg) as (Ev & _). destruct (At5 ltac:(clear; lia)) as (F5 & G5).
    split; [reflexivity|]. reader_ok.
    intros _. split; [exact Ev|]. clear - F5 G5. lia.
  - (* validation *)
    injection He as <- <-. split; [reflexivity|].
    destruct (At1 ltac:(clear; lia)) as (E1 & E2 & E3 & E4 & E5).
    destruct (At2 ltac:(clear; lia)) as (j & Ej).
    destruct (At3 ltac:(clear; lia)) as (F1 & (v1 & Hv1 & Ev1) & F3). destruct (At4 ltac:(clear; lia)) as (G1 & (v2 & Hv2 & Ev2) & G3).
    destruct (At6 ltac:(clear; lia)) as (L1 & L2 & L3).
    reader_ok.
    + intros t v Hin. destruct (Z.eqb_spec (g0 rrv) (g3 rrv)) as [Eq|Ne]; [|apply Houts; exact Hin].
      destruct Hin as [Hin|Hin]; [|apply Houts; exact Hin]. injection Hin as <- <-.
      assert (E03 : h3 rrt = h0 rrt) by (clear - E1 L1 Eq; lia).
      destruct (validated_halves j _ _ _ (F1 j Ej) (G1 j Ej) L2 L3 (eq_trans E03 Ej)) as (Ep & Eq2).
      split; [|exact E2]. exists j. split; [exact Ej|].
      assert (Hjk : j < length whist).
      { pose proof (mo_lq _ _ _ _ HM). destruct (Nat.leb 2 wp); lia. }
      rewrite Ep in Hv1. rewrite Eq2 in Hv2. rewrite Hv1 in Hv2. injection Hv2 as <-.
      rewrite <- (Hpre j Hjk), Hv1, Ev1, Ev2. destruct v1; reflexivity.
    + destruct (Z.eqb (g0 rrv) (g3 rrv)); [|exact Hdesc]. cbn [map fst desc]. split; [|exact Hdesc].
      destruct routs as [|[t v] ro]; [exact I|]. cbn [map fst]. apply (E5 t v). left. reflexivity.
Qed.

Lemma exec_frame i th m c th1 m1 :
  exec i th m c = Some (th1, m1) -> args th1 = args th /\ length (mq m) <= length (mq m1).
Proof.
  intros He. destruct i as [x o r|x o e|o|r|r1 r2 ra rb]; cbn [exec] in He;
    [destruct (nth_error _ _); [|discriminate]| | | |]; injection He as <- <-; split; try reflexivity; try lia.
  destruct x; cbn [mappend mq]; rewrite ?app_length; lia.
Qed.

Ltac veq := unfold vjoin, vsingle; fields; f_equal; clear; lia.

(* opens MemOk and WriterOk of the state after the step, field by field; what is left is what the
   instruction has changed *)
Ltac records_ok :=
  cbn [Nat.eqb pc]; split; constructor; fields; cbn [Nat.leb]; rewrite ?app_length; cbn [length];
  auto; try discriminate; try lia.

Lemma writer_step_ok w m vals k c i th1 m1 a rest :
  MemOk m vals k (pc w) -> WriterOk w m k ->
  args w = a :: rest -> nth_error vals (k + 1) = Some a ->
  nth_error wprog_proved (pc w) = Some i -> exec i w m c = Some (th1, m1) ->
  if Nat.eqb (pc th1) 6
  then MemOk m1 vals (k + 1) 0 /\
       WriterOk {| pc := 0; rv := rv th1; rt := rt th1; cur := cur th1; acq := acq th1; frel := frel th1;
                   args := rest; outs := outs th1 |} m1 (k + 1)
  else MemOk m1 vals k (pc th1) /\ WriterOk th1 m1 k.
Proof.
  intros [Lq La Lb Mq Ma Mb] [P Idle Hcur Hreg Hfrel] Hargs Hval Hi He.
  destruct w as [wpc wrv wrt wcur wacq wfrel wargs wouts]. fields. subst wargs wcur.
  destruct wpc as [|[|[|[|[|[|wpc]]]]]]; [..|exfalso; clear - P; lia]; unfold wprog_proved in Hi; cbn [nth_error] in Hi;
    injection Hi as <-; unfold exec in He; fields; cbn [Nat.leb] in Lq, La, Lb.
  - (* load seq: only the newest message is visible *)
    destruct (nth_error (mq m) (length (mq m) - 1 + c)) as [g|] eqn:Eg; [|discriminate]. injection He as <- <-.
    pose proof (nth_error_some_lt _ _ _ Eg) as Hlt.
    assert (c = 0) by lia. subst c. destruct (Mq _ _ Eg) as (Ev & _).
    records_ok.
    + veq.
  - (* store seq + 1 *)
    injection He as <- <-. records_ok.
    + apply nth_error_snoc_all; [exact Mq|].
      fields. split; [|intros j Ej; lia]. cbn [eval]. fields. rewrite (Hreg ltac:(lia)). lia.
    + veq.
  - (* fence Release *)
    injection He as <- <-. records_ok.
  - (* store secs: the release fence has put the odd sequence number into the message's view *)
    injection He as <- <-. records_ok.
    + apply nth_error_snoc_all; [exact Ma|].
      fields. split; [exists a; rewrite La, Nat.add_0_r; split; [exact Hval|reflexivity]|].
      pose proof (Hfrel ltac:(lia)). lia.
    + veq.
  - (* store nanos *)
    injection He as <- <-. records_ok.
    + apply nth_error_snoc_all; [exact Mb|].
      fields. split; [exists a; rewrite Lb, Nat.add_0_r; split; [exact Hval|reflexivity]|].
      pose proof (Hfrel ltac:(lia)). lia.
    + veq.
  - (* store seq + 2, Release: the write is complete *)
    injection He as <- <-. records_ok.
    + apply nth_error_snoc_all; [exact Mq|].
      fields. split; [cbn [eval]; fields; rewrite (Hreg ltac:(lia)); lia|intros j Ej; lia].
    + veq.
Qed.

Lemma wm_step_ghost s t c s' :
  wm_step s t c = Some s' -> vals_of s' = vals_of s /\ exists d, whist s' = whist s ++ d.
Proof.
  unfold wm_step, vals_of. destruct (threads s) as [|w rs]; [destruct t; discriminate|].
  destruct t as [|t']; cbn [nth_error].
  - destruct (args w) as [|a rest] eqn:Ea; [discriminate|]. destruct (nth_error (wprog s) (pc w)); [|discriminate].
    destruct (exec _ _ _ _) as [[th1 m1]|] eqn:Ee; [|discriminate]. destruct (exec_frame _ _ _ _ _ _ Ee) as (Ha & _).
    destruct (Nat.eqb _ _); intros H; injection H as <-; cbn [threads whist lupd args].
    + split; [rewrite <- app_assoc; reflexivity|exists [a]; reflexivity].
    + split; [rewrite Ha, Ea; reflexivity|exists []; rewrite app_nil_r; reflexivity].
  - destruct (nth_error rs t') as [r|]; [|discriminate]. destruct (nth_error (rprog s) (pc r)); [|discriminate].
    destruct (exec _ _ _ _) as [[th1 m1]|]; [|discriminate]. intros H; injection H as <-. cbn [threads whist lupd].
    split; [reflexivity|exists []; rewrite app_nil_r; reflexivity].
Qed.

Lemma wm_step_inv s t c s' : WInv s -> wm_step s t c = Some s' -> WInv s'.
Proof.
  intros [Hwp Hrp Hh (w & rs & Hth & HM & HW & HR)] Hstep.
  destruct (wm_step_ghost _ _ _ _ Hstep) as (Hv & _).
  unfold wm_step in Hstep. rewrite Hth in Hstep.
  assert (Hlen : length (whist s) = (length (whist s) - 1) + 1).
  { destruct (whist s); [congruence|cbn [length]; lia]. }
  assert (Hvals : vals_of s = whist s ++ args w) by (unfold vals_of; rewrite Hth; reflexivity).
  destruct t as [|t']; cbn [nth_error] in Hstep.
  - (* the writer *)
    destruct (args w) as [|a rest] eqn:Ea; [discriminate|].
    rewrite Hwp in Hstep. destruct (nth_error wprog_proved (pc w)) as [i|] eqn:Ei; [|discriminate].
    destruct (exec i w (wmem s) c) as [[th1 m1]|] eqn:Ee; [|discriminate].
    assert (Hval : nth_error (vals_of s) (length (whist s) - 1 + 1) = Some a).
    { rewrite Hvals, <- Hlen, nth_error_app2, Nat.sub_diag by lia. reflexivity. }
    pose proof (writer_step_ok w (wmem s) (vals_of s) _ c i th1 m1 a rest HM HW Ea Hval Ei Ee) as Hres.
    destruct (exec_frame _ _ _ _ _ _ Ee) as (_ & Hmq).
    assert (HR' : forall wh, (forall j v, nth_error (whist s) j = Some v -> nth_error wh j = Some v) ->
                    Forall (fun r => ReaderOk r m1 (vals_of s) wh) rs).
    { intros wh Hwh. eapply Forall_impl; [|exact HR]. intros [] Hr.
      exact (reader_mono _ _ _ _ _ _ _ _ _ _ _ _ _ _ _ Hr Hmq Hwh (vle_refl _) (vle_refl _) (ro_acq _ _ _ _ Hr)). }
    change (length wprog_proved) with 6 in Hstep.
    destruct (Nat.eqb (pc th1) 6); injection Hstep as <-; destruct Hres as (HM' & HW');
      (constructor; [auto|auto|cbn [whist]|rewrite Hv; cbn [whist wmem threads lupd]]).
    + intros E. apply app_eq_nil in E. destruct E; discriminate.
    + eexists _, rs. split; [reflexivity|]. rewrite app_length. cbn [length pc].
      replace (length (whist s) + 1 - 1) with (length (whist s) - 1 + 1) by lia.
      split; [exact HM'|]. split; [exact HW'|]. apply HR'. intros j v. apply nth_error_app_stable.
    + exact Hh.
    + exists th1, rs. split; [reflexivity|]. split; [exact HM'|]. split; [exact HW'|]. apply HR'. auto.
  - (* a reader *)
    destruct (nth_error rs t') as [r|] eqn:Er; [|discriminate].
    rewrite Hrp in Hstep. destruct (nth_error rprog_proved (pc r)) as [i|] eqn:Ei; [|discriminate].
    destruct (exec i r (wmem s) c) as [[th1 m1]|] eqn:Ee; [|discriminate].
    assert (Hr : ReaderOk r (wmem s) (vals_of s) (whist s)).
    { rewrite Forall_forall in HR. apply HR. eapply nth_error_In; eauto. }
    assert (Hpre : forall j, j < length (whist s) -> nth_error (vals_of s) j = nth_error (whist s) j).
    { intros j Hj. rewrite Hvals. apply nth_error_app1. exact Hj. }
    destruct (reader_step_ok r (wmem s) (vals_of s) (whist s) _ _ c i th1 m1 HM Hlen Hpre Hr Ei Ee) as (-> & Hr'). pose proof (ro_pc _ _ _ _ Hr') as Hpc.
    change (length rprog_proved) with 7 in Hstep.
    destruct (Nat.ltb_spec (pc th1) 7); [|lia]. injection Hstep as <-.
    constructor; [auto|auto|exact Hh|rewrite Hv; cbn [whist wmem threads lupd]].
    exists w, (lupd rs t' th1). split; [reflexivity|]. split; [exact HM|]. split; [exact HW|]. apply Forall_lupd; assumption.
Qed.

Lemma wm_run_inv sched : forall s, WInv s -> WInv (wm_run s sched).
Proof.
  induction sched as [|[t c] r IH]; intros s HI; [exact HI|]. cbn [wm_run].
  destruct (wm_step s t c) as [s'|] eqn:E; [apply IH; eapply wm_step_inv; eauto|apply IH; exact HI].
Qed.

Lemma wm_init_inv v0 vals n : WInv (wm_init wprog_proved rprog_proved v0 vals n).
Proof.
  constructor; cbn [wm_init wprog rprog whist]; [reflexivity|reflexivity|discriminate|].
  eexists _, _. split; [reflexivity|]. cbn [length Nat.sub wmem]. split; [|split].
  - constructor.
    + reflexivity.
    + reflexivity.
    + reflexivity.
    + intros [|t] g Hg; cbn in Hg; [|destruct t; discriminate]. injection Hg as <-. cbn. split; [reflexivity|intros j Ej; lia].
    + intros [|t] g Hg; cbn in Hg; [|destruct t; discriminate]. injection Hg as <-. cbn. split; [|lia].
      exists v0. split; reflexivity.
    + intros [|t] g Hg; cbn in Hg; [|destruct t; discriminate]. injection Hg as <-. cbn. split; [|lia].
      exists v0. split; reflexivity.
  - constructor; cbn.
    + lia.
    + reflexivity.
    + reflexivity.
    + intros Hp; exfalso; lia.
    + intros Hp; exfalso; lia.
  - apply Forall_forall. intros r Hr. apply in_map_iff in Hr. destruct Hr as (x & <- & _).
    constructor; cbn; try (intros Hp; exfalso; clear - Hp; lia).
    + lia.
    + unfold vle; cbn; lia.
    + intros t v [].
    + exact I.
Qed.

Lemma winv_reader_ok s r : WInv s -> In r (tl (threads s)) -> ReaderOk r (wmem s) (vals_of s) (whist s).
Proof.
  intros [_ _ _ (w & rs & Hth & _ & _ & HR)] Hr. rewrite Hth in Hr. rewrite Forall_forall in HR. exact (HR r Hr).
Qed.

Theorem wm_hist_prefix sched : forall s, exists d, whist (wm_run s sched) = whist s ++ d.
Proof.
  induction sched as [|[t c] r IH]; intros s; [exists []; rewrite app_nil_r; reflexivity|]. cbn [wm_run].
  destruct (wm_step s t c) as [s'|] eqn:E; [|apply IH].
  destruct (wm_step_ghost _ _ _ _ E) as (_ & d1 & E1). destruct (IH s') as (d2 & E2).
  exists (d1 ++ d2). rewrite E2, E1, app_assoc. reflexivity.
Qed.
