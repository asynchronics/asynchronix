(* Command-level and trace-level statements about the driver. *)
Require Import NX.Base.Prelude NX.Model.Sim.
Require Import NX.Proofs.SimBasic NX.Proofs.SimDriver NX.Proofs.SimQueue.

Definition is_process (c : cmd) : bool :=
  match c with CProcEvent _ _ _ | CProcQuery _ _ _ | CProcSrc _ _ => true | _ => false end.

Lemma spawn_q s ops : queue (spawn s ops) = queue s /\ now (spawn s ops) = now s.
Proof. split; reflexivity. Qed.

Lemma process_cmd_cases b fuel s c ch s' r nd :
  is_process c = true -> exec_cmd b fuel s c ch = (s', r, nd) ->
  (s' = s /\ r = RTerminated) \/
  exists s0 r0, sim_run b fuel ch s0 = (s', r0, nd) /\ queue s0 = queue s /\ now s0 = now s /\
    (r = r0 \/ is_ok r0 = true /\ (r = RBadQuery \/ exists x, r = RReply x)).
Proof.
  intros HP H. destruct c; try discriminate HP; cbn [exec_cmd] in H;
    (destruct (terminated s && negb (bugF1 b)); [injection H as <- <- <-; auto|right]).
  - eexists _, r. split; [exact H|]. auto.
  - destruct (sim_run b fuel ch _) as [[s1 r1] nd1] eqn:ER. eexists _, r1.
    destruct (is_ok r1); [destruct (qreply s1)|]; injection H as <- <- <-;
      (split; [exact ER|]); repeat split; eauto.
  - eexists _, r. split; [exact H|]. auto.
Qed.

Lemma other_cmd_cases b fuel s c ch s' r nd :
  is_sched_cmd c = false -> is_process c = false -> exec_cmd b fuel s c ch = (s', r, nd) ->
  (queue s' = queue s /\ now s' = now s /\ is_fatal r = false /\ r <> RHang /\
   forall d, c = CStepUntil d -> r <> ROk) \/
  (c = CStep /\ exists t, step_bounded b fuel ch s None = (s', r, t, nd)) \/
  (exists d, c = CStepUntil d /\ (now s <= dl_time d (now s))%Z /\
     step_until_loop b fuel fuel ch s (dl_time d (now s)) false = (s', r, nd)).
Proof.
  intros HS HP H. destruct c; try discriminate HS; try discriminate HP; cbn [exec_cmd] in H.
  - left. injection H as <- <- <-. destruct (cancel_key_spec s (nth slot (dkeys s) None)) as (Q1 & Q2 & _).
    repeat split; auto; congruence.
  - right; left. destruct (step_bounded b fuel ch s None) as [[[s1 r1] t1] nd1]. injection H as <- <- <-. eauto.
  - destruct (terminated s && negb (bugF1 b)); [left; injection H as <- <- <-; repeat split; auto; congruence|].
    destruct (Z.ltb_spec (dl_time d (now s)) (now s)); [left; injection H as <- <- <-; repeat split; auto; congruence|].
    right; right. eauto.
  - left. destruct (nth_error _ _) as [k|]; [destruct (sink_drain k)|]; injection H as <- <- <-;
      repeat split; auto; congruence.
  - left. destruct (nth_error _ _); injection H as <- <- <-; repeat split; auto; congruence.
Qed.

(* a fatal result leaves the simulation terminated (C11) *)
Theorem exec_cmd_fatal b fuel s c ch s' r nd :
  exec_cmd b fuel s c ch = (s', r, nd) -> is_fatal r = true -> terminated s' = true.
Proof.
  intros H HF. destruct (is_sched_cmd c) eqn:HS.
  { destruct (sched_cmd_cases _ _ _ _ _ _ _ _ HS H) as (d & mk & keyed & p & chk & slot & s1 & code & k & _ & _ & -> & _).
    discriminate HF. }
  destruct (is_process c) eqn:HP.
  { destruct (process_cmd_cases _ _ _ _ _ _ _ _ HP H) as [[_ ->]|(s0 & r0 & ER & _ & _ & [->|(_ & [->|[x ->]])])];
      try discriminate HF. eapply sim_run_fatal; eauto. }
  destruct (other_cmd_cases _ _ _ _ _ _ _ _ HS HP H) as [(_ & _ & F & _)|[(_ & t & ES)|(d & _ & _ & EL)]].
  - congruence.
  - eapply step_bounded_fatal; eauto.
  - eapply step_until_loop_fatal; eauto.
Qed.

Lemma inv_same_time c s s' r :
  (forall d, c = CStepUntil d -> r <> ROk) -> now s' = now s ->
  (now s <= now s')%Z /\
  (match c with CStep | CStepUntil _ => True | _ => now s' = now s end) /\
  (forall d, c = CStepUntil d -> r = ROk -> now s' = dl_time d (now s)).
Proof.
  intros HC E. split; [lia|]. split; [destruct c; auto|].
  intros d Ec Er. destruct (HC d Ec Er).
Qed.

(* One command: the queue invariant is kept, time does not decrease, process_*
   and the non-stepping commands leave the time unchanged, a successful
   step_until ends exactly at its target. *)
Theorem exec_cmd_inv b fuel s c ch s' r nd :
  bugF4 b = false -> q_inv s ->
  exec_cmd b fuel s c ch = (s', r, nd) -> r <> RHang ->
  q_inv s' /\ (now s <= now s')%Z /\
  (match c with CStep | CStepUntil _ => True | _ => now s' = now s end) /\
  (forall d, c = CStepUntil d -> r = ROk -> now s' = dl_time d (now s)).
Proof.
  intros HF HI H NH. destruct (is_sched_cmd c) eqn:HS.
  { destruct (sched_cmd_cases _ _ _ _ _ _ _ _ HS H) as (d & mk & keyed & p & chk & slot & s1 & code & k & ES & -> & _ & M).
    assert (chk = true).
    { destruct c; try discriminate HS; destruct M as (_ & _ & ->); [reflexivity|rewrite HF; reflexivity]. }
    subst chk. destruct (store_dkey_queue s1 slot k) as [Q1 Q2].
    split; [|apply inv_same_time; [intros d0 ->; discriminate HS|]].
    - apply (q_inv_ext s1); [exact Q1|exact Q2|]. eapply sched_request_inv; eauto.
    - rewrite Q2. apply (sched_request_frame _ _ _ _ _ _ _ _ _ _ ES). }
  destruct (is_process c) eqn:HP.
  { destruct (process_cmd_cases _ _ _ _ _ _ _ _ HP H) as [[-> _]|(s0 & r0 & ER & Q & N & _)];
      (split; [|apply inv_same_time; [intros d0 ->; discriminate HP|]]); [exact HI|reflexivity| |].
    - eapply sim_run_inv; [|exact ER]. apply (q_inv_ext s); auto.
    - rewrite (proj1 (sim_run_frame _ _ _ _ _ _ _ ER)). exact N. }
  destruct (other_cmd_cases _ _ _ _ _ _ _ _ HS HP H) as [(Q & N & _ & _ & D)|[(-> & t & ES)|(d & -> & L & EL)]].
  - split; [apply (q_inv_ext s); auto|apply inv_same_time; [exact D|exact N]].
  - destruct (step_bounded_inv _ _ _ _ _ _ _ _ _ HI ES NH) as (A & B & _).
    split; [exact A|]. split; [exact B|]. split; [auto|discriminate].
  - destruct (step_until_loop_inv _ _ _ _ _ _ _ _ _ _ HI L EL NH) as (A & B & C).
    split; [exact A|]. split; [exact B|]. split; [auto|]. intros d0 E. injection E as <-. exact C.
Qed.

Fixpoint states_of (b : bench) (fuel : nat) (s : state) (cs : list (cmd * list nat)) : list (state * res) :=
  match cs with
  | [] => []
  | (c, ch) :: r => let '(s1, x, _) := exec_cmd b fuel s c ch in (s1, x) :: states_of b fuel s1 r
  end.

Lemma exec_cmds_states b fuel cs : forall s,
  map (fun o => (ores o, otime o)) (exec_cmds b fuel s cs) =
  map (fun p => (snd p, now (fst p))) (states_of b fuel s cs).
Proof.
  induction cs as [|[c ch] r IH]; intros s; cbn [exec_cmds states_of map]; auto.
  destruct (exec_cmd b fuel s c ch) as [[s1 x] nd]. cbn [map fst snd ores otime]. f_equal. apply IH.
Qed.

Fixpoint nondecreasing (t : Z) (l : list Z) : Prop :=
  match l with [] => True | x :: r => (t <= x)%Z /\ nondecreasing x r end.

(* [Inv] is kept by every command whose result is acceptable ([G]); [J] is whatever the commands guarantee of
   their results *)
Lemma states_of_inv b fuel (Inv : state -> Prop) (G J : res -> Prop) :
  (forall s c ch s' r nd, Inv s -> exec_cmd b fuel s c ch = (s', r, nd) -> G r ->
     Inv s' /\ J r /\ (now s <= now s')%Z) ->
  forall cs s, Inv s -> (forall p, In p (states_of b fuel s cs) -> G (snd p)) ->
  (forall p, In p (states_of b fuel s cs) -> Inv (fst p) /\ J (snd p)) /\
  nondecreasing (now s) (map (fun p => now (fst p)) (states_of b fuel s cs)).
Proof.
  intros Hstep. induction cs as [|[c ch] r IH]; intros s HI HG; cbn [states_of] in *; [split; [intros p []|exact I]|].
  destruct (exec_cmd b fuel s c ch) as [[s1 x] nd] eqn:EC.
  destruct (Hstep _ _ _ _ _ _ HI EC (HG (s1, x) (or_introl eq_refl))) as (A & B & C).
  destruct (IH s1 A) as [I1 I2]; [intros p Hp; apply HG; right; exact Hp|].
  split.
  - intros p [<-|Hp]; [split; [exact A|exact B]|apply I1; exact Hp].
  - cbn [map nondecreasing fst]. split; [exact C|exact I2].
Qed.

Theorem states_inv b fuel cs : forall s,
  bugF4 b = false -> q_inv s ->
  (forall p, In p (states_of b fuel s cs) -> snd p <> RHang) ->
  (forall p, In p (states_of b fuel s cs) -> q_inv (fst p)) /\
  nondecreasing (now s) (map (fun p => now (fst p)) (states_of b fuel s cs)).
Proof.
  intros s HF HI HH.
  destruct (states_of_inv b fuel q_inv (fun r => r <> RHang) (fun _ => True)) with (cs := cs) (s := s) as [A B]; auto.
  - intros s0 c ch s' r nd HI0 EC NH. destruct (exec_cmd_inv _ _ _ _ _ _ _ _ HF HI0 EC NH) as (X & Y & _). auto.
  - split; [intros p Hp; apply A, Hp|exact B].
Qed.

Lemma init_inv b fuel ich s r nd : sim_init b fuel ich = (s, r, nd) -> q_inv s /\ now s = bt0 b.
Proof.
  unfold sim_init, clock_sync. intros H.
  rewrite (proj1 (sim_run_frame _ _ _ _ _ _ _ H)). split; [|reflexivity].
  eapply sim_run_inv; [|exact H]. intros it [].
Qed.

Lemma classify_cases b s :
  classify b s = ROk \/ is_fatal (classify b s) = true.
Proof. pose proof (classify_run_res b s). destruct (classify b s); try discriminate; auto. Qed.

(* The log written by one bounded step: nothing, or ETime T, EClock T (exactly
   one clock call, first), then only handler-level entries; when the clock
   reports a lag above the tolerance nothing follows the clock call and the
   result is OutOfSync with that lag. *)
Theorem step_bounded_log b fuel ch s bound s' r t nd :
  step_bounded b fuel ch s bound = (s', r, t, nd) -> r <> RHang ->
  (log s' = log s /\ clockpos s' = clockpos s /\ t = None) \/
  exists T l, log s' = l ++ EClock T :: ETime T :: log s /\ forallb plain_entry l = true /\
              clockpos s' = S (clockpos s) /\
              (forall lag, over_tolerance b (nth (clockpos s) (bclock b) None) = Some lag ->
                           r = ROutOfSync lag /\ l = [] /\ terminated s' = true) /\
              (over_tolerance b (nth (clockpos s) (bclock b) None) = None -> forall lag, r <> ROutOfSync lag).
Proof.
  intros H NH. apply step_bounded_cases in H.
  destruct H as [(-> & _ & ->)|(nk & q0 & _ & H)]; [left; auto|].           (* terminated *)
  destruct H as [(_ & -> & _ & ->)|(k & _ & H)]; [left; auto|].             (* nothing due *)
  destruct H as [[_ ->]|(q1 & groups & s3 & _ & _ & _ & FC & FL & H)]; [congruence|right].
  destruct H as [(lag & EO & -> & -> & _)|(EO & ER & _)].
  - exists (fst k), []. cbn [log clockpos terminated set_terminated app]. rewrite FL, FC.
    split; [reflexivity|]. split; [reflexivity|]. split; [reflexivity|]. split.
    + intros lag' E. rewrite EO in E. injection E as <-. auto.
    + intros E. congruence.
  - destruct (sim_run_frame _ _ _ _ _ _ _ ER) as (_ & A2 & _ & l & A4 & A5).
    exists (fst k), l. rewrite A4, A2, FL, FC.
    split; [reflexivity|]. split; [exact A5|]. split; [reflexivity|]. split.
    + intros lag E. congruence.
    + intros _ lag ->. destruct (sim_run_res _ _ _ _ _ _ _ ER) as [X|[X|X]]; discriminate X.
Qed.

(* init: synchronize(t0) is the first thing that happens after the time write *)
Theorem init_log b fuel ich s r nd :
  sim_init b fuel ich = (s, r, nd) ->
  exists l, log s = l ++ [EClock (bt0 b); ETime (bt0 b)] /\ forallb plain_entry l = true.
Proof.
  unfold sim_init, clock_sync. intros H. destruct (sim_run_frame _ _ _ _ _ _ _ H) as (_ & _ & _ & A).
  exact A.
Qed.
